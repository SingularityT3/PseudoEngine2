(* Lemmas_OpStates.v -- how the evaluator combines operands, for every pair of operand expressions, state and context: binary
   arithmetic and comparison evaluate the left operand, then the right one in the state the left one left, then apply the operator
   to the two results (each operand exactly once); AND with a left operand that is BOOLEAN FALSE yields FALSE without evaluating the
   right operand at all. *)
From PE2 Require Import Eval Lemmas_Store.
Local Open Scope N_scope.

Section Ops.
Variables (ped repl : bool) (lim : limits) (fuel : nat).
Notation ev := (ev_eval (evs_at ped repl lim (S fuel))).
Notation ev' := (ev_eval (evs_at ped repl lim fuel)).

Theorem arithmetic_evaluates_left_then_right t l r c :
  ev (NArith t l r) c = (lr <- ev' l c ;; rr <- ev' r c ;; eval_arith t c lr rr).
Proof. reflexivity. Qed.

Theorem comparison_evaluates_left_then_right t l r c :
  ev (NCmp t l r) c = (lr <- ev' l c ;; rr <- ev' r c ;; eval_cmp t c lr rr).
Proof. reflexivity. Qed.

Theorem and_with_a_false_left_operand_skips_the_right_one t l r c s s1 lr :
  tt t = TAND -> ev' l c s = (Ok lr, s1) -> dk (r_type lr) = KBool -> r_val lr = Some (PBool false) ->
  ev (NLogic t l r) c s = (Ok (res_of KBool (PBool false)), s1).
Proof.
  intros Ht He Hk%dt_is_true Hv. rewrite eval_S. cbn [eval_body]. rewrite (bind_ok He), Ht, Hk. unfold as_bool. rewrite Hv. reflexivity.
Qed.
End Ops.
