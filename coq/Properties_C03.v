(* Properties_C03.v — selection and loop statements execute exactly the documented control flow.
   The combinators are the ones the evaluator uses (first theorem); their laws hold for
   arbitrary condition and body computations. *)
From PE2 Require Import Eval Control Lemmas_Control Run Lemmas_ForStates.
Local Open Scope Z_scope.

Theorem C03_evaluator_uses_combinators : forall ped repl lim f t cond body c,
  eval ped repl lim (S f) (NWhile t cond body) c = while_loop lim f t c (eval ped repl lim f cond c) (run_block ped repl lim f body c) /\
  eval ped repl lim (S f) (NRepeat t cond body) c = repeat_loop lim f t c (eval ped repl lim f cond c) (run_block ped repl lim f body c).
Proof. intros. split; [apply eval_while|apply eval_repeat]. Qed.
Print Assumptions C03_evaluator_uses_combinators.

Theorem C03_if_first_true : forall t c ce b rest s s1,
  ce s = (Ok (rbool true), s1) -> if_chain t c ((Some ce, b) :: rest) s = (b ;;; ret res_none) s1.
Proof. intros t c ce b rest s s1. exact (if_test t c ce b rest s s1 true). Qed.
Print Assumptions C03_if_first_true.

Theorem C03_if_false_goes_on : forall t c ce b rest s s1,
  ce s = (Ok (rbool false), s1) -> if_chain t c ((Some ce, b) :: rest) s = if_chain t c rest s1.
Proof. intros t c ce b rest s s1. exact (if_test t c ce b rest s s1 false). Qed.
Print Assumptions C03_if_false_goes_on.

Theorem C03_if_else_and_end : forall t c b rest s,
  if_chain t c ((None, b) :: rest) s = (b ;;; ret res_none) s /\ if_chain t c [] s = (Ok res_none, s).
Proof. intros. split; [apply if_else|apply if_none_left]. Qed.
Print Assumptions C03_if_else_and_end.

Theorem C03_condition_type_error : forall t c ce b rest s s1 r,
  ce s = (Ok r, s1) -> dk (r_type r) <> KBool -> forall x s2, if_chain t c ((Some ce, b) :: rest) s <> (Ok x, s2).
Proof. exact if_condition_not_boolean. Qed.
Print Assumptions C03_condition_type_error.

Theorem C03_case_first_match : forall m b rest s s1,
  (m s = (Ok true, s1) -> case_chain ((m, b) :: rest) s = (b ;;; ret res_none) s1) /\
  (m s = (Ok false, s1) -> case_chain ((m, b) :: rest) s = case_chain rest s1).
Proof. intros m b rest s s1. split; [exact (case_test m b rest s s1 true)|exact (case_test m b rest s s1 false)]. Qed.
Print Assumptions C03_case_first_match.

Theorem C03_while_tests_before : forall lim t c k ce br,
  while_loop lim (S k) t c ce br =
  (tick lim t c ;;; v <- cond_bool t c ce ;;
   if negb v then ret res_none else go_on <- run_body br ;; if go_on then while_loop lim k t c ce br else ret res_none).
Proof. exact while_unfold. Qed.
Print Assumptions C03_while_tests_before.

Theorem C03_repeat_tests_after : forall lim t c k ce br,
  repeat_loop lim (S k) t c ce br =
  (tick lim t c ;;; go_on <- run_body br ;;
   if negb go_on then ret res_none else v <- cond_bool t c ce ;; if v then ret res_none else repeat_loop lim k t c ce br).
Proof. exact repeat_unfold. Qed.
Print Assumptions C03_repeat_tests_after.

Theorem C03_repeat_continue_still_tests_until : forall lim t c k ce br s s0 s1 s2 tk,
  tick lim t c s = (Ok Datatypes.tt, s0) -> br s0 = (Fail (FContinue tk), s1) -> ce s1 = (Ok (rbool true), s2) ->
  repeat_loop lim (S k) t c ce br s = (Ok res_none, s2).
Proof. exact repeat_continue_tests_until. Qed.
Print Assumptions C03_repeat_continue_still_tests_until.

(* BREAK and CONTINUE never leave the loop that encloses them *)
Theorem C03_while_absorbs_signals : forall lim t c k ce br, no_signal ce -> no_signal (while_loop lim k t c ce br).
Proof. exact while_absorbs_signals. Qed.
Print Assumptions C03_while_absorbs_signals.
Theorem C03_repeat_absorbs_signals : forall lim t c k ce br, no_signal ce -> no_signal (repeat_loop lim k t c ce br).
Proof. exact repeat_absorbs_signals. Qed.
Print Assumptions C03_repeat_absorbs_signals.
Theorem C03_for_absorbs_signals : forall lim t c k it stepv stop br, no_signal (for_loop lim k t c it stepv stop br).
Proof. exact for_absorbs_signals. Qed.
Print Assumptions C03_for_absorbs_signals.

(* FOR: with the header test of the evaluator (for_continues), the iterator takes the values
   start, start+step, ... for n = max 0 ((stop - start) / step + 1) iterations and ends at
   start + n*step, the first value past stop *)
Theorem C03_for_sequence : forall n fuel start stop stepv, stepv <> 0 ->
  Z.of_nat n = for_count start stop stepv -> (n < fuel)%nat ->
  for_values fuel start stop stepv = (seq_from n start stepv, start + Z.of_nat n * stepv).
Proof. exact for_values_spec. Qed.
Print Assumptions C03_for_sequence.

Theorem C03_for_final_is_first_past_stop : forall start stop stepv, stepv <> 0 ->
  let n := for_count start stop stepv in
  for_continues stepv (start + n * stepv) stop = false /\ (0 < n -> for_continues stepv (start + (n - 1) * stepv) stop = true).
Proof. exact for_final_past_stop. Qed.
Print Assumptions C03_for_final_is_first_past_stop.

Example C03_for_examples :
  for_values 10 1 5 2 = ([1; 3; 5], 7) /\ for_values 10 5 1 (-2) = ([5; 3; 1], -1) /\ for_values 10 5 1 1 = ([], 5).
Proof. vm_compute. repeat split; reflexivity. Qed.

(* the FOR header, in every state: a counter that exists and is not an INTEGER variable is a runtime error raised before any bound is
   evaluated; the whole state is as it was *)
Theorem C03_for_counter_must_be_an_integer_variable : forall ped repl lim fuel t id start stop step body c s i cl,
  lookup_var c (tval id) true s = (Ok (Some i), s) -> nm_get i (s_cells s) = Some cl -> c_const cl = false -> dk (c_type cl) <> KInt ->
  exists f, ev_eval (evs_at ped repl lim (S fuel)) (NFor t id start stop step body) c s = (Fail f, s).
Proof. exact for_counter_must_be_an_integer_variable. Qed.
Print Assumptions C03_for_counter_must_be_an_integer_variable.
