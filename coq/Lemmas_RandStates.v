(* Lemmas_RandStates.v -- what SEEK, PUTRECORD and GETRECORD do when they are legal, statement by statement, in every state:
   SEEK moves the cursor of that handle and nothing else; PUTRECORD writes the text form of the variable's value at the cursor
   (rf_put: replace, or append at the end) and nothing else; GETRECORD loads the record at the cursor into the variable in place.
   File names are string literals. *)
From PE2 Require Import Eval Lemmas_Store.
Local Open Scope N_scope.

Section Rand.
Variables (ped repl : bool) (lim : limits) (fuel : nat).
Notation ev := (ev_eval (evs_at ped repl lim (S (S fuel)))).

Theorem seek_moves_the_cursor t name a c s ar addr fh fh' :
  ev_eval (evs_at ped repl lim (S fuel)) a c s = (Ok ar, s) -> dk (r_type ar) = KInt -> r_val ar = Some (PInt addr) -> (1 <= addr)%Z ->
  find_file (tval name) (s_files s) = Some fh -> of_mode fh = FRandom -> rf_seek fh addr = Some fh' ->
  ev (NSeek t (NStr name) a) c s = (Ok res_none, set_files (replace_file fh' (s_files s)) s).
Proof. intros Ea Hk Hv Hpos Hf Hm Hs. rewrite eval_S. cbn [eval_body]. rewrite (address_first Ea Hk Hv Hpos), (file_name_first eval_NStr), Hf, Hm, Hs. reflexivity. Qed.

(* PUTRECORD "f", v : v a variable (no array of that name) not of pointer type, whose value has the tree tr and the text txt *)
Theorem putrecord_writes_the_value_at_the_cursor t name id c s fh vid cl tr txt :
  find_file (tval name) (s_files s) = Some fh -> of_mode fh = FRandom ->
  lookup_var c (tval id) true s = (Ok (Some vid), s) -> lookup_arr c (tval id) true s = (Ok None, s) ->
  nm_get vid (s_cells s) = Some cl -> dk (c_type cl) <> KPtr -> abs_val hfuel c (c_val cl) s = (Ok tr, s) -> dump tr = Some txt ->
  ev (NPutRecord t (NStr name) id) c s = (Ok res_none, set_files (replace_file (rf_put fh txt) (s_files s)) s).
Proof.
  intros Hf Hm Hl Ha Ec Hk%dt_is_false Hab Hd.
  rewrite eval_S. cbn [eval_body]. rewrite (file_name_first eval_NStr), Hf, Hm, (bind_ok Hl), (bind_ok Ha), bind_assoc, (bind_ok (get_cell_at Ec)), Hk,
    bind_assoc, bind_ret, bind_assoc, (bind_ok Hab), Hd. reflexivity.
Qed.

(* GETRECORD "f", v : the record at the cursor is loaded into the value that is there (load old rec: same shape, C13) and stored back
   in place; nothing but v's storage changes (store_tree) *)
Theorem getrecord_loads_the_record_at_the_cursor t name id c s fh vid cl rec old new rest s' :
  find_file (tval name) (s_files s) = Some fh -> of_mode fh = FRandom ->
  lookup_var c (tval id) true s = (Ok (Some vid), s) -> lookup_arr c (tval id) true s = (Ok None, s) ->
  nm_get vid (s_cells s) = Some cl -> dk (c_type cl) <> KPtr -> c_const cl = false -> rf_get fh = Some rec ->
  abs_val hfuel c (c_val cl) s = (Ok old, s) -> load old rec = (new, rest, true) -> store_tree hfuel vid new s = (Ok Datatypes.tt, s') ->
  ev (NGetRecord t (NStr name) id) c s = (Ok res_none, s').
Proof.
  intros Hf Hm Hl Ha Ec Hk%dt_is_false Hc Hg Hab Hld Hst.
  rewrite eval_S. cbn [eval_body]. rewrite (file_name_first eval_NStr), Hf, Hm, (bind_ok Hl), (bind_ok Ha), (bind_ok (get_cell_at Ec)), Hk, bind_ret, Hc, Hg,
    (bind_ok Hab), Hld, (bind_ok Hst). reflexivity.
Qed.
End Rand.
