(* Properties_C06.v — arrays are bounds-checked total maps with independent elements.
   The laws of Arrays.v (linearisation in range and injective, get/set on the element vector), over the whole evaluator the
   structure of an array is fixed and its elements are variables of the element type, and what `a[i1,…,in]` denotes in every state. *)
From PE2 Require Import Arrays Lemmas_Arrays Eval Lemmas_DeepCopy Lemmas_HeapInv Run Lemmas_ConstLogic Lemmas_ConstThm Lemmas_ArrStates.
Local Open Scope Z_scope.

(* an in-bounds index tuple addresses a cell inside the element vector *)
Theorem C06_linear_in_range : forall idxs ds, all_valid idxs ds = true -> 0 <= linear idxs ds < total_size ds.
Proof. exact linear_in_range. Qed.
Print Assumptions C06_linear_in_range.

(* two different in-bounds tuples never address the same cell (any number of dimensions) *)
Theorem C06_linear_injective : forall idxs idxs' ds,
  all_valid idxs ds = true -> all_valid idxs' ds = true -> linear idxs ds = linear idxs' ds -> idxs = idxs'.
Proof. exact linear_injective. Qed.
Print Assumptions C06_linear_injective.

(* a write changes exactly the addressed element; a read returns the last value written *)
Theorem C06_get_set_same : forall (A : Type) (cells : list A) idxs ds v,
  all_valid idxs ds = true -> Z.of_nat (List.length cells) = total_size ds ->
  nth_z (set_nth cells (linear idxs ds) v) (linear idxs ds) = Some v.
Proof. intros A cells idxs ds v H L. apply nth_z_set_same. rewrite L. apply linear_in_range; exact H. Qed.
Print Assumptions C06_get_set_same.

Theorem C06_get_set_other : forall (A : Type) (cells : list A) idxs idxs' ds v,
  all_valid idxs ds = true -> all_valid idxs' ds = true -> idxs <> idxs' ->
  nth_z (set_nth cells (linear idxs ds) v) (linear idxs' ds) = nth_z cells (linear idxs' ds).
Proof.
  intros A cells idxs idxs' ds v H H' N. apply nth_z_set_other. intro E. apply N.
  exact (linear_injective _ _ _ H H' E).
Qed.
Print Assumptions C06_get_set_other.

(* whole-array assignment is only defined between arrays of identical bounds *)
Theorem C06_assign_requires_same_bounds : forall a b, dims_eqb a b = true <-> a = b.
Proof. exact dims_eqb_eq. Qed.
Print Assumptions C06_assign_requires_same_bounds.

(* over the whole evaluator: an array, once declared, never changes -- its bounds, its element type and the identity of its
   element cells are fixed whatever the program does afterwards (only the payloads of the element cells change), and it never
   disappears; so an index tuple denotes the same element cell for the lifetime of the array *)
Theorem C06_array_structure_is_fixed : forall ped repl lim fuel bl c s id a, hb s -> nm_get id (s_arrs s) = Some a ->
  nm_get id (s_arrs (snd (run_block ped repl lim fuel bl c s))) = Some a.
Proof. exact arrays_are_immutable. Qed.
Print Assumptions C06_array_structure_is_fixed.

(* non-vacuity: a 3-dimensional shape with negative bounds and an in-bounds tuple *)
Example C06_shape_example :
  all_valid [-3; 0; 4] [(-3, -1); (0, 0); (2, 4)] = true /\ linear [-3; 0; 4] [(-3, -1); (0, 0); (2, 4)] = 6.
Proof. vm_compute. split; reflexivity. Qed.

(* over the whole evaluator: the elements of every array are variables in their own right -- they exist, are not constants, and
   have the array's element type (heap invariant of the program logic, kept by every block) *)
Theorem C06_elements_are_variables_of_the_element_type : forall ped repl lim fuel bl c s a ar e, Inv s ->
  nm_get a (s_arrs (snd (run_block ped repl lim fuel bl c s))) = Some ar -> In e (a_elems ar) ->
  exists cl, nm_get e (s_cells (snd (run_block ped repl lim fuel bl c s))) = Some cl /\ c_const cl = false /\ c_type cl = a_type ar.
Proof. exact array_elements_are_variables_of_the_element_type. Qed.
Print Assumptions C06_elements_are_variables_of_the_element_type.

(* ---- what an indexed name denotes, for every state and context; the index expressions are any that evaluate without touching the
   state (`evaluates ev s e r`: ev e s = (Ok r, s)); `index_ok d r i`: r is an INTEGER result holding i, and i lies within d ---- *)
(* in bounds: a[i1,...,in] resolves to exactly the element cell the linearisation of the tuple selects -- so a write changes that
   element and a read returns what was last written to the same tuple (C06_linear_injective: different tuples, different cells) *)
Theorem C06_element_resolves_to_the_selected_cell : forall ped repl lim fuel t r' idx c s aid a rsl is eid,
  ev_resolve (evs_at ped repl lim fuel) r' c s = (Ok (HArr aid), s) -> nm_get aid (s_arrs s) = Some a ->
  List.length idx = List.length (a_dims a) -> Forall2 (evaluates (fun x => ev_eval (evs_at ped repl lim fuel) x c) s) idx rsl ->
  Forall2 (fun dr i => index_ok (fst dr) (snd dr) i) (combine (a_dims a) rsl) is ->
  nth_z (a_elems a) (linear is (a_dims a)) = Some eid ->
  ev_resolve (evs_at ped repl lim (S fuel)) (RIndex t r' idx) c s = (Ok (HVar eid), s).
Proof. exact element_resolves_to_the_selected_cell. Qed.
Print Assumptions C06_element_resolves_to_the_selected_cell.

(* an index that is not an INTEGER or lies outside its bounds is a runtime error; the whole state is as it was: no element is
   read or written.  (`int_tagged`: an INTEGER result holds an integer, which C05_results_have_their_type guarantees.) *)
Theorem C06_bad_index_is_an_error_without_effect : forall ped repl lim fuel t r' idx c s aid a rsl,
  ev_resolve (evs_at ped repl lim fuel) r' c s = (Ok (HArr aid), s) -> nm_get aid (s_arrs s) = Some a ->
  List.length idx = List.length (a_dims a) -> Forall2 (evaluates (fun x => ev_eval (evs_at ped repl lim fuel) x c) s) idx rsl -> Forall int_tagged rsl ->
  ~ (exists is, Forall2 (fun dr i => index_ok (fst dr) (snd dr) i) (combine (a_dims a) rsl) is) ->
  exists f, ev_resolve (evs_at ped repl lim (S fuel)) (RIndex t r' idx) c s = (Fail f, s).
Proof. exact bad_index_is_an_error. Qed.
Print Assumptions C06_bad_index_is_an_error_without_effect.

Theorem C06_wrong_number_of_indices_is_an_error : forall ped repl lim fuel t r' idx c s aid a,
  ev_resolve (evs_at ped repl lim fuel) r' c s = (Ok (HArr aid), s) -> nm_get aid (s_arrs s) = Some a ->
  List.length idx <> List.length (a_dims a) -> exists f, ev_resolve (evs_at ped repl lim (S fuel)) (RIndex t r' idx) c s = (Fail f, s).
Proof. exact wrong_number_of_indices_is_an_error. Qed.
Print Assumptions C06_wrong_number_of_indices_is_an_error.

Theorem C06_indexing_a_variable_is_an_error : forall ped repl lim fuel t r' idx c s id,
  ev_resolve (evs_at ped repl lim fuel) r' c s = (Ok (HVar id), s) -> exists f, ev_resolve (evs_at ped repl lim (S fuel)) (RIndex t r' idx) c s = (Fail f, s).
Proof. exact indexing_a_variable_is_an_error. Qed.
Print Assumptions C06_indexing_a_variable_is_an_error.
