(* Lemmas_Scope.v — name resolution and argument binding of calls (C04), on the functions the evaluator uses.
   - a name is looked up in the activation's own variable table first and otherwise in the table of the root (global)
     context: no context in between (a caller's activation) is ever consulted;
   - a call allocates a context whose identifier was never used, with empty tables: its locals are its own;
   - a BYREF parameter is bound to the very cell the argument denotes; a BYVAL parameter to a cell allocated for it. *)
From PE2 Require Import Eval Lemmas_Frame Lemmas_Store Lemmas_HeapIds Lemmas_DeepCopy.
Local Open Scope N_scope.

(* the walk to the root ends at a context without parent and reads nothing else *)
Lemma root_of_aux_spec fuel : forall id s r s', root_of_aux fuel id s = (Ok r, s') ->
  s' = s /\ exists rc, nm_get r (s_ctxs s) = Some rc /\ x_parent rc = None.
Proof.
  induction fuel as [|f IH]; intros id s r s' E; [discriminate|]. cbn [root_of_aux] in E. apply bind_get_ctx_inv in E as [cx [Ecx E]].
  destruct (x_parent cx) as [p|] eqn:Ep; [apply (IH p s r s' E)|]. inversion E; subst. split; [reflexivity|]. exists cx. auto.
Qed.
Lemma root_of_spec id s r s' : root_of id s = (Ok r, s') -> s' = s /\ exists rc, nm_get r (s_ctxs s) = Some rc /\ x_parent rc = None.
Proof. unfold root_of. intros E. apply bind_get_ctx_inv in E as [cx [_ E]]. exact (root_of_aux_spec _ _ _ _ _ E). Qed.

(* Context::getVariable: own table first; then, only if asked for globals and only from a non-root context, the root's table *)
Theorem lookup_var_spec c name global s r s' : lookup_var c name global s = (Ok r, s') ->
  s' = s /\ exists cx, nm_get c (s_ctxs s) = Some cx /\
  match assoc_str name (x_vars cx) with
  | Some id => r = Some id
  | None => (r = None /\ (global = false \/ x_parent cx = None)) \/
            (global = true /\ exists root rc, nm_get root (s_ctxs s) = Some rc /\ x_parent rc = None /\ r = assoc_str name (x_vars rc))
  end.
Proof.
  intros E. pose proof (ro_lookup_var c name global s) as R. rewrite E in R. cbn [snd] in R. subst s'. split; [reflexivity|].
  unfold lookup_var in E. apply bind_get_ctx_inv in E as [cx [Ecx E]]. exists cx. split; [exact Ecx|].
  destruct (assoc_str name (x_vars cx)) as [id|]; [inversion E; reflexivity|].
  destruct global; [|inversion E; auto]. destruct (x_parent cx) as [p|]; [|inversion E; auto].
  apply bind_inv in E as [root [s1 [E1 E]]]. apply root_of_spec in E1 as [-> [rc [Erc Hp]]].
  apply bind_get_ctx_inv in E as [rc' [Erc' E]]. inversion E. right. split; [reflexivity|]. exists root, rc. repeat split; congruence.
Qed.

(* in particular: a local hides the global of the same name *)
Corollary local_first c name global s cx id : nm_get c (s_ctxs s) = Some cx -> assoc_str name (x_vars cx) = Some id ->
  lookup_var c name global s = (Ok (Some id), s).
Proof. intros Ec Ea. unfold lookup_var. rewrite (bind_ok (get_ctx_at Ec)), Ea. reflexivity. Qed.

(* a call's activation: a context under a never-used identifier, with no variables, arrays or types, whose parent is the caller *)
Theorem activation_is_fresh parent name isfun rett s id s' :
  hb s -> new_ctx (Some parent) name isfun false rett s = (Ok id, s') ->
  id = s_next s /\ nm_get id (s_ctxs s) = None /\
  exists d, nm_get id (s_ctxs s') = Some (mkCtx (Some parent) name [] [] [] [] [] isfun false rett None None d) /\
  (forall j x, nm_get j (s_ctxs s) = Some x -> nm_get j (s_ctxs s') = Some x) /\ s_cells s' = s_cells s /\ s_arrs s' = s_arrs s.
Proof.
  intros Hb E. destruct (new_ctx_spec _ _ _ _ _ _ _ _ E) as [d [-> ->]].
  destruct (alloc_ctx_spec (mkCtx (Some parent) name [] [] [] [] [] isfun false rett None None d) s Hb) as [_ [[[_ [_ Hk]] _] Hg]].
  exact (conj eq_refl (conj (nm_below_none _ _ _ (proj2 (proj2 Hb)) (N.le_refl _)) (ex_intro _ d (conj Hg (conj Hk (conj eq_refl eq_refl)))))).
Qed.

Lemma rt_error_fails {A} t c s : exists f s', @rt_error A t c s = (Fail f, s').
Proof. destruct (@rt_error_pure A t c s) as [f E]. eauto. Qed.
Lemma then_rt_error_fails {A B} (m : M A) t c s : exists f s', (m ;;; @rt_error B t c) s = (Fail f, s').
Proof. destruct (m s) as [[a|f] s1] eqn:E; [rewrite (bind_ok E); apply rt_error_fails|rewrite (bind_fail E); eauto]. Qed.

Section Calls.
Variables (lim : limits) (self : evs).

(* BYREF: the parameter name is entered in the callee's table with the identifier of the caller's own cell *)
Theorem byref_binds_the_callers_cell t pn pty pr ta rs ar v vr c fc s id s1 :
  dt_eq pty (r_type v) = true ->
  ev_resolve self rs c s = (Ok (HVar id), s1) ->
  bind_args_body self t ((pn, pty, true) :: pr) (NAccess ta rs :: ar) (v :: vr) c fc s =
  (add_var fc pn id ;;; ev_bind_args self t pr ar vr c fc) s1.
Proof.
  intros Ht Er. cbn [bind_args_body]. rewrite bind_ret, Ht. cbn [negb]. rewrite bind_assoc, (bind_ok Er). reflexivity.
Qed.

(* new Variable(...) of a primitive, enumerated or pointer type: one new cell under the identifier just taken from the counter,
   owned by the given context, not constant unless asked, holding the type's default value; nothing else changes *)
Theorem new_var_is_a_fresh_cell name ty cst owner p s :
  default_prim ty = Some p ->
  new_var_body self name ty cst owner s =
  (Ok (s_next s), alloc_cell (mkCell name ty cst owner p) s).
Proof. intros E. unfold new_var_body. rewrite E. reflexivity. Qed.

(* BYVAL with a parameter of a type without record structure: the callee's table gets the parameter name with the identifier of
   a cell allocated for it by this call (so it is no cell of the caller), holding the converted argument value *)
(* [self] is an arbitrary record of evaluation functions, so what its ev_new_var does at this call has to be assumed: that it
   makes the one cell new_var_is_a_fresh_cell describes, as the evaluator's own does at every level above zero *)
Lemma byval_binds_the_cell_made_for_it t pn pty pr a ar v vr c fc s v' s1 p0 :
  implicit_cast pty v s = (Ok v', s1) -> dt_eq pty (r_type v') = true -> default_prim (r_type v') = Some p0 ->
  ev_new_var self pn (r_type v') false fc s1 = (Ok (s_next s1), alloc_cell (mkCell pn (r_type v') false fc p0) s1) ->
  bind_args_body self t ((pn, pty, false) :: pr) (a :: ar) (v :: vr) c fc s =
  ((assign_val hfuel (s_next s1) v' ;;; add_var fc pn (s_next s1)) ;;; ev_bind_args self t pr ar vr c fc)
    (alloc_cell (mkCell pn (r_type v') false fc p0) s1).
Proof.
  intros Ec Ht Ed Hnv. cbn [bind_args_body]. rewrite (bind_ok Ec), Ht. cbn [negb].
  rewrite bind_assoc, (bind_ok Hnv).
  assert (G : nm_get (s_next s1) (s_cells (alloc_cell (mkCell pn (r_type v') false fc p0) s1)) = Some (mkCell pn (r_type v') false fc p0))
    by apply nm_get_put_same.
  rewrite bind_assoc, (bind_ok (get_cell_at G)).
  (* the layout comparison made when both sides are records: the new cell holds a default primitive, never a record *)
  destruct p0; try reflexivity. destruct (r_type v') as [[] []]; discriminate Ed.
Qed.
Theorem byval_binds_a_new_cell t pn pty pr a ar v vr c fc s v' s1 p0 :
  implicit_cast pty v s = (Ok v', s1) -> dt_eq pty (r_type v') = true -> default_prim (r_type v') = Some p0 ->
  ev_new_var self = new_var_body self ->
  bind_args_body self t ((pn, pty, false) :: pr) (a :: ar) (v :: vr) c fc s =
  ((assign_val hfuel (s_next s1) v' ;;; add_var fc pn (s_next s1)) ;;; ev_bind_args self t pr ar vr c fc)
    (alloc_cell (mkCell pn (r_type v') false fc p0) s1).
Proof.
  intros Ec Ht Ed Hnv. apply byval_binds_the_cell_made_for_it; try assumption. rewrite Hnv. apply new_var_is_a_fresh_cell, Ed.
Qed.

(* a call with the wrong number of arguments never runs the routine: it ends in a failure (the arity error, or a failure of an argument) *)
Theorem wrong_argument_count_procedure t name args c s pd :
  assoc_str name (s_procs s) = Some pd -> List.length args <> List.length (pd_params pd) ->
  exists f s', call_procedure_body lim self t name args c s = (Fail f, s').
Proof. intros Ea Hn%Nat.eqb_neq. unfold call_procedure_body. rewrite bind_gets, Ea, Hn. apply then_rt_error_fails. Qed.
Theorem wrong_argument_count_function t args c s fd :
  builtin_sig (tval t) = None -> assoc_str (tval t) (s_funcs s) = Some fd -> List.length args <> List.length (fd_params fd) ->
  exists f s', call_function_body lim self t args c s = (Fail f, s').
Proof. intros Eb Ea Hn%Nat.eqb_neq. unfold call_function_body. rewrite bind_gets, Eb, Ea, Hn. apply then_rt_error_fails. Qed.

(* an argument of another type (after the BYVAL conversions; BYREF arguments are not converted) is rejected before anything is bound *)
Theorem wrong_argument_type_byref t pn pty pr a ar v vr c fc s :
  dt_eq pty (r_type v) = false ->
  exists f s', bind_args_body self t ((pn, pty, true) :: pr) (a :: ar) (v :: vr) c fc s = (Fail f, s').
Proof. intros Ht. cbn [bind_args_body]. rewrite bind_ret, Ht. apply rt_error_fails. Qed.
(* a BYREF argument that is not a variable, element or field access is rejected *)
Theorem byref_argument_must_be_a_variable t pn pty pr a ar v vr c fc s :
  dt_eq pty (r_type v) = true -> (forall ta rs, a <> NAccess ta rs) ->
  exists f s', bind_args_body self t ((pn, pty, true) :: pr) (a :: ar) (v :: vr) c fc s = (Fail f, s').
Proof.
  intros Ht Hn. cbn [bind_args_body]. rewrite bind_ret, Ht. cbn [negb]. destruct (@rt_error_pure unit t c s) as [f E].
  destruct a; try (rewrite (bind_fail E); eauto). exfalso. eapply Hn. reflexivity.
Qed.
End Calls.
