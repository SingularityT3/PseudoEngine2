(* Lemmas_ParserCong.v — two runs of the parser, one with --pedantic flag p1 and fuel n, the other with flag p2 and
   fuel n + d, give the same result at every parse function unless the first gives a result of the kind [bad].
   Lemmas_PedParser.v (flag on against off, bad = a pedantic failure) and Lemmas_ParserFuel.v (more fuel,
   bad = PFuel) are the two uses. *)
From PE2 Require Import Parser.

Section Cong.
Variable bad : forall A, pres A -> Prop.
Variables p1 p2 : bool.
Variable d : nat.

(* written as [pbind] unfolds, so that it applies to a sequence whose first part is known to be bad *)
Hypothesis bad_bind : forall A B (r : pres A) (k : A -> P B),
  bad A r -> bad B (match r with POk a s => k a s | PFail kd t s => PFail kd t s | PFuel => PFuel end).
Hypothesis fuel_ok : d = 0 \/ forall A, bad A PFuel.
Hypothesis ped_ok : p1 = p2 \/ p1 = true /\ forall A t s, bad A (PFail LexPedantic t s).

Definition res_rel {A} (r1 r2 : pres A) : Prop := r1 = r2 \/ bad A r1.
Definition PRel {A} (m1 m2 : P A) : Prop := forall s, res_rel (m1 s) (m2 s).

Lemma PRel_refl {A} (m : P A) : PRel m m.
Proof. intros s. left. reflexivity. Qed.

Lemma PRel_bind {A B} (m1 m2 : P A) (k1 k2 : A -> P B) :
  PRel m1 m2 -> (forall a, PRel (k1 a) (k2 a)) -> PRel (pbind m1 k1) (pbind m2 k2).
Proof.
  intros Hm Hk s. unfold pbind. destruct (Hm s) as [->|Hb].
  - destruct (m2 s); [apply Hk | left; reflexivity ..].
  - right. apply bad_bind, Hb.
Qed.

Lemma PRel_binloop n isop (sub1 sub2 : P node) mk : PRel sub1 sub2 ->
  forall lft, PRel (binloop n isop sub1 mk lft) (binloop (n + d) isop sub2 mk lft).
Proof.
  intros Hs. induction n as [|k IH]; intros lft s.
  - destruct fuel_ok as [->|Hb]; [left; reflexivity | right; apply Hb].
  - cbn [binloop Nat.add]. destruct (isop (tt (cur s))); [|left; reflexivity].
    destruct (Hs (adv s)) as [->|Hb].
    + destruct (sub2 (adv s)); [apply IH | left; reflexivity ..].
    + right. apply bad_bind, Hb.
Qed.

(* the two places where the flag is tested: parse_cast_body and parse_if_tail_body *)
Lemma PRel_if_ped {A} t (m1 m2 : P A) : PRel m1 m2 -> PRel (if p1 then pped t else m1) (if p2 then pped t else m2).
Proof.
  intros H. destruct ped_ok as [->|[-> Hb]]; [destruct p2; [apply PRel_refl | exact H] | intros s; right; apply Hb].
Qed.
Lemma res_rel_if_ped {A} t s (r1 r2 : pres A) : res_rel r1 r2 ->
  res_rel (if p1 then PFail LexPedantic t s else r1) (if p2 then PFail LexPedantic t s else r2).
Proof.
  intros H. destruct ped_ok as [->|[-> Hb]]; [destruct p2; [left; reflexivity | exact H] | right; apply Hb].
Qed.

Record prs_cong (x y : prs) : Prop := {
  c_fuel : pr_fuel y = pr_fuel x + d;
  c_parse_eval : PRel (pr_parse_eval x) (pr_parse_eval y);
  c_parse_logical : PRel (pr_parse_logical x) (pr_parse_logical y);
  c_parse_comparison : PRel (pr_parse_comparison x) (pr_parse_comparison y);
  c_parse_strexpr : PRel (pr_parse_strexpr x) (pr_parse_strexpr y);
  c_parse_arith : PRel (pr_parse_arith x) (pr_parse_arith y);
  c_parse_term : PRel (pr_parse_term x) (pr_parse_term y);
  c_parse_factor : PRel (pr_parse_factor x) (pr_parse_factor y);
  c_parse_atom : PRel (pr_parse_atom x) (pr_parse_atom y);
  c_parse_moddiv : PRel (pr_parse_moddiv x) (pr_parse_moddiv y);
  c_parse_cast : PRel (pr_parse_cast x) (pr_parse_cast y);
  c_parse_args : forall (acc : list node), PRel (pr_parse_args x acc) (pr_parse_args y acc);
  c_parse_arglist : PRel (pr_parse_arglist x) (pr_parse_arglist y);
  c_parse_fncall : PRel (pr_parse_fncall x) (pr_parse_fncall y);
  c_parse_indices : forall (acc : list node), PRel (pr_parse_indices x acc) (pr_parse_indices y acc);
  c_parse_resolver_tail : forall (r : resolver), PRel (pr_parse_resolver_tail x r) (pr_parse_resolver_tail y r);
  c_parse_resolver : PRel (pr_parse_resolver x) (pr_parse_resolver y);
  c_parse_ids : forall (acc : list token), PRel (pr_parse_ids x acc) (pr_parse_ids y acc);
  c_parse_bounds : forall (acc : list node), PRel (pr_parse_bounds x acc) (pr_parse_bounds y acc);
  c_parse_declare : PRel (pr_parse_declare x) (pr_parse_declare y);
  c_parse_const : PRel (pr_parse_const x) (pr_parse_const y);
  c_parse_enum_vals : forall (acc : list str), PRel (pr_parse_enum_vals x acc) (pr_parse_enum_vals y acc);
  c_parse_comp_body : forall (acc : list node), PRel (pr_parse_comp_body x acc) (pr_parse_comp_body y acc);
  c_parse_type : PRel (pr_parse_type x) (pr_parse_type y);
  c_parse_if_tail : forall (acc : list (option node * list node)), PRel (pr_parse_if_tail x acc) (pr_parse_if_tail y acc);
  c_parse_if : PRel (pr_parse_if x) (pr_parse_if y);
  c_parse_case_clauses : forall (acc : list casecomp), PRel (pr_parse_case_clauses x acc) (pr_parse_case_clauses y acc);
  c_parse_case : PRel (pr_parse_case x) (pr_parse_case y);
  c_parse_while : PRel (pr_parse_while x) (pr_parse_while y);
  c_parse_repeat : PRel (pr_parse_repeat x) (pr_parse_repeat y);
  c_parse_for : PRel (pr_parse_for x) (pr_parse_for y);
  c_parse_params : forall (a : pacc), PRel (pr_parse_params x a) (pr_parse_params y a);
  c_parse_paramlist : PRel (pr_parse_paramlist x) (pr_parse_paramlist y);
  c_parse_procedure : PRel (pr_parse_procedure x) (pr_parse_procedure y);
  c_parse_function : PRel (pr_parse_function x) (pr_parse_function y);
  c_parse_call : PRel (pr_parse_call x) (pr_parse_call y);
  c_parse_output_tail : forall (acc : list node), PRel (pr_parse_output_tail x acc) (pr_parse_output_tail y acc);
  c_parse_statement : PRel (pr_parse_statement x) (pr_parse_statement y);
  c_parse_block_loop : forall (bt : btype) (acc : list node), PRel (pr_parse_block_loop x bt acc) (pr_parse_block_loop y bt acc);
  c_parse_block : forall (bt : btype), PRel (pr_parse_block x bt) (pr_parse_block y bt) }.

(* discriminated: a goal finds its field by its shape *)
Create HintDb prs_cong discriminated.
#[local] Hint Resolve
  c_parse_eval c_parse_logical c_parse_comparison c_parse_strexpr c_parse_arith c_parse_term c_parse_factor
  c_parse_atom c_parse_moddiv c_parse_cast c_parse_args c_parse_arglist c_parse_fncall c_parse_indices
  c_parse_resolver_tail c_parse_resolver c_parse_ids c_parse_bounds c_parse_declare c_parse_const c_parse_enum_vals
  c_parse_comp_body c_parse_type c_parse_if_tail c_parse_if c_parse_case_clauses c_parse_case c_parse_while
  c_parse_repeat c_parse_for c_parse_params c_parse_paramlist c_parse_procedure c_parse_function c_parse_call
  c_parse_output_tail c_parse_statement c_parse_block_loop c_parse_block : prs_cong.

Section Step.
Variables x y : prs.
Hypothesis Hrel : prs_cong x y.

(* The same term on both sides is a leaf; otherwise the head of the left side decides.  [res_rel (m1 s) (m2 s)] is
   lifted to [PRel m1 m2], so the combinators are needed in their [PRel] form only. *)
Ltac ps_step :=
  lazymatch goal with
  | |- res_rel ?r1 ?r2 =>
    first [ constr_eq r1 r2; left; reflexivity
          | lazymatch goal with
            | |- res_rel (if p1 then _ else _) (if p2 then _ else _) => apply res_rel_if_ped
            | |- res_rel (match ?c with _ => _ end) (match ?c with _ => _ end) => destruct c
            | |- res_rel (?m1 ?s) (?m2 ?s) => refine ((_ : PRel m1 m2) s)
            end ]
  | |- PRel ?m1 ?m2 =>
    first [ constr_eq m1 m2; apply PRel_refl
          | lazymatch goal with
            | |- PRel (pbind _ _) (pbind _ _) => apply PRel_bind; [ | intros ? ]
            | |- PRel (binloop _ _ _ _ _) (binloop _ _ _ _ _) => rewrite (c_fuel x y Hrel); apply PRel_binloop
            | |- PRel (if p1 then _ else _) (if p2 then _ else _) => apply PRel_if_ped
            | |- PRel (match ?c with _ => _ end) (match ?c with _ => _ end) => destruct c
            | |- PRel (fun _ => _) (fun _ => _) => intros ?
            | |- _ => solve [auto with prs_cong nocore]
            end ]
  end.
Ltac ps := repeat ps_step.

Lemma parse_block_loop_body_cong bt acc : PRel (parse_block_loop_body x bt acc) (parse_block_loop_body y bt acc).
Proof.
  unfold parse_block_loop_body.
  (* The statement case is the default branch of a match on the token type, so the term holds a copy of it for
     every token type that is not named: it is given a name before that match is split. *)
  set (st := pbind (pr_parse_statement x) _). set (st' := pbind (pr_parse_statement y) _).
  assert (Hst : PRel st st') by (subst st st'; ps).
  clearbody st st'. cbv zeta. ps.
Qed.

Ltac head t := lazymatch t with ?f _ => head f | _ => t end.
Ltac unfold_head := lazymatch goal with |- PRel ?m _ => let h := head m in unfold h end.

(* Each field of [prs_step p x] is the body of one parse function at [x]: unfolding the head twice, the
   projection and then the body, lays it open. *)
Lemma prs_step_cong : prs_cong (prs_step p1 x) (prs_step p2 y).
Proof.
  constructor; intros; unfold prs_step; [exact (f_equal S (c_fuel x y Hrel)) | unfold_head ..].
  all: lazymatch goal with
       | |- PRel (parse_block_loop_body _ _ _) _ => apply parse_block_loop_body_cong
       | |- _ => unfold_head; cbv zeta; ps
       end.
Qed.
End Step.

Lemma pr_fuel_at p n : pr_fuel (prs_at p n) = n.
Proof. induction n as [|n IH]; [reflexivity | cbn; f_equal; exact IH]. Qed.

Lemma prs_at_cong n : prs_cong (prs_at p1 n) (prs_at p2 (n + d)).
Proof.
  induction n as [|n IH]; [|apply prs_step_cong, IH].
  constructor; [exact (pr_fuel_at p2 d) | ..]; intros; intros s.
  all: destruct fuel_ok as [->|Hb]; [left; reflexivity | right; apply Hb].
Qed.
End Cong.
