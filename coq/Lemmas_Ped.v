(* Lemmas_Ped.v — --pedantic only rejects: the evaluator run with the option either fails with a pedantic
   Error or behaves exactly (result and state) as without it; and when it fails, it does so in a state from which
   the final state of the run without the option is reachable in any frame relation (Lemmas_Frame.v). *)
From PE2 Require Import Eval Lemmas_Frame.
Local Open Scope Z_scope.

Definition ped_fail {A} (x : outcome A * st) : Prop :=
  exists d s, x = (Fail (FErr d), s) /\ d_kind d = DPedantic /\ d_cls d = EOther.
Definition R {A} (x y : outcome A * st) : Prop := x = y \/ ped_fail x.
Definition RM {A} (m1 m2 : M A) : Prop := forall s, R (m1 s) (m2 s).

(* the failures of the two guards; no handler catches them: handlers test the error class, pedantic errors have
   class EOther and no handler asks for EOther *)
Definition ped_bad (f : fail) : Prop := exists d, f = FErr d /\ d_kind d = DPedantic /\ d_cls d = EOther.
Lemma ped_bad_uncaught : uncaught ped_bad.
Proof. intros f [d [-> [_ Hc]]]. exact Hc. Qed.

Lemma RI_ped {A} I (x y : outcome A * st) : RI I ped_bad x y -> x = y \/ (ped_fail x /\ I (snd x) (snd y)).
Proof.
  intros [E|[f [s [-> [[d [-> Hd]] HI]]]]]; [left; exact E|right]. split; [exists d, s; split; [reflexivity|exact Hd]|exact HI].
Qed.

Section Frame.
Variable I : st -> st -> Prop.
Hypothesis I_refl : forall s, I s s.
Hypothesis I_trans : forall a b c, I a b -> I b c -> I a c.
Hypothesis HI : frame_ok I.

Lemma evs_at_ped repl lim fuel : evs_rel I ped_bad (evs_at true repl lim fuel) (evs_at false repl lim fuel).
Proof.
  apply evs_at_cong with (more := 0%nat); try assumption.
  - exact ped_bad_uncaught.
  - (* no extra fuel *) left. reflexivity.
  - (* the guard fails with the option, with a failure of ped_bad, and does nothing without *)
    intros t. apply RMI_bad; [eexists; split; [reflexivity|split; reflexivity]|apply Pr_ret; exact I_refl].
  - apply plus_n_O.
Qed.

(* with --pedantic the block either does exactly what it does without the option, or stops with a pedantic
   Error in a state from which the final state of the other run is I-reachable *)
Theorem run_block_ped_frame repl lim fuel bl c s :
  run_block true repl lim fuel bl c s = run_block false repl lim fuel bl c s \/
  (ped_fail (run_block true repl lim fuel bl c s) /\
   I (snd (run_block true repl lim fuel bl c s)) (snd (run_block false repl lim fuel bl c s))).
Proof. apply RI_ped. apply (evs_at_ped repl lim fuel _ (CRunBlock bl c)). Qed.
End Frame.

Section Main.
Variable repl : bool.
Variable lim : limits.

Lemma evs_at_RM fuel A (q : call A) : RM (ev_call (evs_at true repl lim fuel) q) (ev_call (evs_at false repl lim fuel) q).
Proof.
  (* the frame relation that relates every two states: reflexive, transitive, kept by every update *)
  pose proof (evs_at_ped (fun _ _ => True) (fun _ => Logic.I) (fun _ _ _ _ _ => Logic.I) frame_ok_total repl lim fuel A q) as G.
  intros s. destruct (RI_ped _ _ _ (proj1 G s)) as [E|[E _]]; [left|right]; exact E.
Qed.

(* with --pedantic the evaluator either stops with a pedantic Error or does exactly what it does without *)
Theorem eval_ped_only_rejects fuel n c : RM (eval true repl lim fuel n c) (eval false repl lim fuel n c).
Proof. exact (evs_at_RM fuel _ (CEval n c)). Qed.

Theorem run_block_ped_only_rejects fuel bl c : RM (run_block true repl lim fuel bl c) (run_block false repl lim fuel bl c).
Proof. exact (evs_at_RM fuel _ (CRunBlock bl c)). Qed.
End Main.
