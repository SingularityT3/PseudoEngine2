(* Lemmas_IoStates.v -- what the input/output statements do when they are legal, statement by statement, in every state:
   WRITEFILE appends exactly the text of the value and one line break to that file and changes nothing else; READFILE stores exactly
   the next line of the handle in the STRING variable and advances the handle by that line; INPUT stores the typed line converted
   by the variable's type.  File names are string literals. *)
From PE2 Require Import Eval Lemmas_Store Lemmas_ConstLogic.
Local Open Scope N_scope.

Section Io.
Variables (ped repl : bool) (lim : limits) (fuel : nat).
Notation ev := (ev_eval (evs_at ped repl lim (S (S fuel)))).

(* WRITEFILE "f", d : d any expression that yields, without touching the state, a value of a primitive type whose text is txt *)
Theorem writefile_appends_one_line t name d c s fh dr p txt :
  find_file (tval name) (s_files s) = Some fh -> (of_mode fh = FWrite \/ of_mode fh = FAppend) ->
  ev_eval (evs_at ped repl lim (S fuel)) d c s = (Ok dr, s) -> prim_kind (dk (r_type dr)) = true -> r_val dr = Some p -> prim_to_string p s = (Ok txt, s) ->
  ev (NWriteFile t (NStr name) d) c s =
    (Ok res_none, set_fs (fs_set (tval name) (match fs_get (tval name) (s_fs s) with Some old => old | None => [] end ++ txt ++ [ch_nl]) (s_fs s)) s).
Proof.
  intros Hf Hm Hd Hk Hv Hp. rewrite eval_S. cbn [eval_body]. rewrite (file_name_first eval_NStr), Hf.
  destruct Hm as [Hm|Hm]; rewrite Hm, (bind_ok Hd); destruct (dk (r_type dr)); try discriminate Hk;
    unfold as_payload; rewrite Hv, bind_ret, (bind_ok Hp), bind_gets, Hf, Hm; reflexivity.
Qed.

(* READFILE "f", v : v an existing STRING variable that is not a constant *)
Theorem readfile_stores_the_next_line t name id c s fh vid cl :
  find_file (tval name) (s_files s) = Some fh -> of_mode fh = FRead ->
  lookup_var c (tval id) true s = (Ok (Some vid), s) -> nm_get vid (s_cells s) = Some cl -> dk (c_type cl) = KStr -> c_const cl = false ->
  let line := fst (file_read_line fh) in let fh' := snd (file_read_line fh) in
  let s1 := set_files (replace_file fh' (s_files s)) s in
  ev (NReadFile t (NStr name) id) c s =
    (Ok res_none, set_cells (nm_put vid (mkCell (c_name cl) (c_type cl) (c_const cl) (c_owner cl) (PStr line)) (s_cells s1)) s1).
Proof.
  intros Hf Hm Hl Ec Hk%dt_is_true Hc line fh' s1.
  rewrite eval_S. cbn [eval_body]. rewrite (file_name_first eval_NStr), Hf, Hm, (bind_ok Hl), bind_assoc, (bind_ok (get_cell_at Ec)), Hk, Hc. cbn [negb]. rewrite bind_ret.
  unfold line, fh', s1. destruct (file_read_line fh) as [l f']. rewrite (bind_ok (update_file_at _ _)), (bind_ok (set_cell_val_at (s := set_files _ s) _ Ec)), Hc. reflexivity.
Qed.

(* INPUT v : the typed line, converted by the variable's type *)
Definition input_value (k : dkind) (line : str) : option payload :=
  match k with
  | KInt => Some (PInt (string_to_int line)) | KReal => Some (PReal (string_to_real line))
  | KBool => Some (PBool (str_eqb line (str_of_string "TRUE"))) | KChar => Some (PChar (match line with ch :: _ => ch | [] => ch_nul end))
  | KStr => Some (PStr line) | _ => None
  end.

Theorem input_stores_the_converted_line t r c s id cl line eof s1 v :
  ev_resolve (evs_at ped repl lim (S fuel)) r c s = (Ok (HVar id), s) -> nm_get id (s_cells s) = Some cl -> c_const cl = false ->
  read_line s = (Ok (line, eof), s1) -> input_value (dk (c_type cl)) line = Some v ->
  ev (NInput t r) c s = (Ok res_none, set_cells (nm_put id (mkCell (c_name cl) (c_type cl) (c_const cl) (c_owner cl) v) (s_cells s1)) s1).
Proof.
  intros Hr Ec Hc Hrl Hv. rewrite eval_S. cbn [eval_body]. rewrite (input_target Hr), (bind_ok (get_cell_at Ec)), Hc, (bind_ok Hrl).
  destruct (read_line_spec s) as [l [rest [e E]]]. rewrite Hrl in E. inversion E; subst.
  destruct (dk (c_type cl)); inversion Hv; subst v; rewrite (bind_ok (set_cell_val_at (s := set_in _ s) _ Ec)), Hc; reflexivity.
Qed.
End Io.
