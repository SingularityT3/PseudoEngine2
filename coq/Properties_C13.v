(* Properties_C13.v — records written to a random file read back exactly.
   Proved for the whole codec on value trees of any shape and depth whose leaves are INTEGER, BOOLEAN, CHAR,
   STRING, DATE and enumerated values (records of records, arrays inside records): load (dump v) = v, with
   nothing left over, for every such value; every such value can be dumped; STRING payloads of arbitrary
   bytes and CHAR fields of all 256 codes survive the marking of line breaks; the marked form is line safe.
   The file as a whole: every written value is one record whose line breaks are all followed by '#', and a file
   of such records, closed and opened again (or read by a later run), yields exactly the records written.
   PARTIAL (stated, not proved): REAL leaves -- the text form has 17 significant digits and is read back by a
   correctly rounded strtod; that round trip is compared with the implementation on boundary and random
   numbers.  Pointer fields are not stored (their dump is empty and they do not read back: the code's rule). *)
From PE2 Require Import Codec Lemmas_Codec Lemmas_Numerals Lemmas_CodecTree Lemmas_RecLines.
Local Open Scope Z_scope.

Theorem C13_string_payload_roundtrip : forall s rest0,
  read_marked (List.length (mark_newlines s)) true ch_nul (mark_newlines s ++ rest0) [] = Some (s, rest0).
Proof. exact string_payload_roundtrip. Qed.
Print Assumptions C13_string_payload_roundtrip.

Theorem C13_dump_line_safe : forall s, line_safe (mark_newlines s) = true.
Proof. exact mark_newlines_line_safe. Qed.
Print Assumptions C13_dump_line_safe.

Theorem C13_char_field_roundtrip : forall c rest0 old,
  load (VChar old) (str_of_string "CHAR " ++ [c] ++ (if aeqb c ch_nl then [ch_hash] else []) ++ rest0) = (VChar c, rest0, true).
Proof. exact char_field_exact. Qed.
Print Assumptions C13_char_field_roundtrip.

Theorem C13_record_roundtrip : forall v old dx, wf v -> shape old v -> dump v = Some dx -> load old dx = (v, [], true).
Proof. exact record_roundtrip. Qed.
Print Assumptions C13_record_roundtrip.

(* inside a longer line: whatever follows the value (nothing, or a blank and more fields) is left untouched *)
Theorem C13_value_roundtrip_in_context : forall v old dx rest, wf v -> shape old v -> dump v = Some dx ->
  (rest = [] \/ exists t, rest = ch_space :: t) -> load old (dx ++ rest) = (v, rest, true).
Proof. exact codec_exact. Qed.
Print Assumptions C13_value_roundtrip_in_context.

Theorem C13_every_wellformed_value_is_written : forall v, wf v -> exists dx, dump v = Some dx.
Proof. exact wf_dumps. Qed.
Print Assumptions C13_every_wellformed_value_is_written.

Theorem C13_integer_field_roundtrip : forall z rest old, int64_min <= z <= int64_max -> no_leading_digit rest ->
  load (VInt old) (str_of_string "INTEGER " ++ z_to_str z ++ rest) = (VInt z, rest, true).
Proof. exact int_field_roundtrip. Qed.
Print Assumptions C13_integer_field_roundtrip.

Theorem C13_decimal_numeral_roundtrip : forall lo hi z rest, lo <= z <= hi -> no_leading_digit rest ->
  rd_integer lo hi (z_to_str z ++ rest) = Some (z, rest).
Proof. exact rd_integer_z_to_str. Qed.
Print Assumptions C13_decimal_numeral_roundtrip.

(* a written value is a well-formed record of the file: line safe, not empty, not starting with '#' *)
Theorem C13_written_value_is_one_record : forall v dx, wf v -> dump v = Some dx ->
  line_safe dx = true /\ dx <> [] /\ starts_hash dx = false.
Proof. exact dump_is_record. Qed.
Print Assumptions C13_written_value_is_one_record.

(* the values written to a random file, in order, are the records found after CLOSEFILE and OPENFILE or by a later run *)
Theorem C13_file_of_values_survives_reopen : forall vs recs, Forall wf vs -> dump_all vs = Some recs ->
  load_records (store_records recs) = recs.
Proof. exact file_of_values_reopens. Qed.
Print Assumptions C13_file_of_values_survives_reopen.

(* non-vacuity: a record holding a record, an array of records and every scalar kind meets the premises *)
Definition c13_inner : vtree := VRec (str_of_string "Inner") [VInt (-42); VStr (str_of_string "two
lines")] [].
Definition c13_sample : vtree :=
  VRec (str_of_string "Outer") [VInt 9223372036854775807; VBool true; VChar ch_nl; VDate 29 2 2024; VEnum (str_of_string "Col") 3 2; c13_inner]
       [[c13_inner; c13_inner]; [VChar " "]].
Example C13_sample_wellformed : wf c13_sample /\ shape c13_sample c13_sample /\
  (match dump c13_sample with Some dx => match load c13_sample dx with (v, r, ok) => ok && match r with [] => true | _ => false end end | None => false end) = true.
Proof.
  split; [|split; [|vm_compute; reflexivity]]; cbn; unfold int64_min, int64_max, two63, two64, slen';
  repeat split; try discriminate; try (left; discriminate); try lia; try reflexivity; auto.
Qed.

Example C13_examples :
  dump (VStr (str_of_string "a
#b")) = Some (str_of_string "STRING 5 a
##b") /\
  load (VStr []) (str_of_string "STRING 5 a
##b") = (VStr (str_of_string "a
#b"), [], true) /\
  snd (load (VInt 0) (str_of_string "STRING 1 x")) = false.
Proof. vm_compute. repeat split; reflexivity. Qed.

Example C13_file_example :
  match dump_all [c13_sample; VStr (str_of_string "x
"); VChar ch_nl; c13_inner] with
  | Some recs => (4 <? Z.of_nat (List.length (split_lines (store_records recs)))) &&
                 (Z.of_nat (List.length (load_records (store_records recs))) =? 4)
  | None => false end = true.
Proof. vm_compute. reflexivity. Qed.
