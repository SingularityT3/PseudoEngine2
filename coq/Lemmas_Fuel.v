(* Lemmas_Fuel.v — fuel is only a bound: the evaluator run with fuel n either stops with the fuel failure or does
   exactly (result and state) what it does with any larger fuel.  The instance of the congruence of Lemmas_Frame.v
   in which running out of fuel is the one failure that may come earlier, and every two states are related. *)
From PE2 Require Import Eval Lemmas_Frame.
Local Open Scope Z_scope.

Theorem evs_at_fuel ped repl lim fuel more A (q : call A) s :
  ev_call (evs_at ped repl lim fuel) q s = ev_call (evs_at ped repl lim (fuel + more)) q s \/
  exists s', ev_call (evs_at ped repl lim fuel) q s = (Fail FFuel, s').
Proof.
  assert (G : evs_rel (fun _ _ => True) (eq FFuel) (evs_at ped repl lim fuel) (evs_at ped repl lim (fuel + more))).
  { apply evs_at_cong with (more := more).
    - (* the frame relation that relates every two states *) exact (fun _ => Logic.I).
    - exact (fun _ _ _ _ _ => Logic.I).
    - exact frame_ok_total.
    - (* no handler catches the lack of fuel *) intros f <-. exact Logic.I.
    - (* running out of fuel is the bad outcome *) right. reflexivity.
    - (* the same flag on both sides *) intros t. split; [left; reflexivity|intros s0; exact Logic.I].
    - reflexivity. }
  destruct (proj1 (G A q) s) as [E|[f [s' [E [<- _]]]]]; [left; exact E|right; exists s'; exact E].
Qed.

(* one more unit of fuel changes nothing unless the run had stopped for lack of fuel *)
Theorem run_block_fuel_step ped repl lim fuel bl c s :
  run_block ped repl lim fuel bl c s = run_block ped repl lim (S fuel) bl c s \/ exists s', run_block ped repl lim fuel bl c s = (Fail FFuel, s').
Proof. rewrite <- Nat.add_1_r. exact (evs_at_fuel ped repl lim fuel 1 _ (CRunBlock bl c) s). Qed.

Theorem eval_fuel_step ped repl lim fuel n c s :
  eval ped repl lim fuel n c s = eval ped repl lim (S fuel) n c s \/ exists s', eval ped repl lim fuel n c s = (Fail FFuel, s').
Proof. rewrite <- Nat.add_1_r. exact (evs_at_fuel ped repl lim fuel 1 _ (CEval n c) s). Qed.

Theorem run_block_fuel_monotone ped repl lim fuel more bl c s r s' :
  run_block ped repl lim fuel bl c s = (r, s') -> r <> Fail FFuel -> run_block ped repl lim (fuel + more) bl c s = (r, s').
Proof.
  intros H Hr. destruct (evs_at_fuel ped repl lim fuel more _ (CRunBlock bl c) s) as [E|[s1 E]].
  - rewrite <- H. symmetry. exact E.
  - unfold run_block in H. cbn [ev_call] in E. rewrite H in E. inversion E. congruence.
Qed.
