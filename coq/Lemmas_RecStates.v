(* Lemmas_RecStates.v -- what r.f denotes: the variable (or array) named f in the record's own private context, looked up there and
   nowhere else; a field the record does not have, and .f applied to something that is not a record, are runtime errors that leave
   the whole state as it was.  For every state and context; the inner resolution (of r) is any that does not touch the state. *)
From PE2 Require Import Eval Lemmas_Store.
Local Open Scope N_scope.

Section Field.
Variables (ped repl : bool) (lim : limits) (fuel : nat).
Notation rs := (ev_resolve (evs_at ped repl lim (S fuel))).

(* what is left of r.f once r is known to be a record variable: the lookup in the record's own context *)
Lemma field_of_a_record t {r' c s id cl tn rc} m :
  ev_resolve (evs_at ped repl lim fuel) r' c s = (Ok (HVar id), s) -> nm_get id (s_cells s) = Some cl ->
  dk (c_type cl) = KRec -> c_val cl = PRec tn rc ->
  rs (RField t r' m) c s =
  (v <- lookup_var rc (tval m) false ;;
   match v with
   | Some fid => ret (HVar fid)
   | None => a <- lookup_arr rc (tval m) false ;; match a with Some aid => ret (HArr aid) | None => rt_error t c end
   end) s.
Proof. intros Hr Ec Hk%dt_is_true Hv. rewrite resolve_S. cbn [resolve_body]. rewrite (bind_ok Hr), (bind_ok (get_cell_at Ec)), Hk, Hv. reflexivity. Qed.

Theorem field_resolves_to_the_records_own_variable t r' m c s id cl tn rc fid :
  ev_resolve (evs_at ped repl lim fuel) r' c s = (Ok (HVar id), s) -> nm_get id (s_cells s) = Some cl ->
  dk (c_type cl) = KRec -> c_val cl = PRec tn rc -> lookup_var rc (tval m) false s = (Ok (Some fid), s) ->
  rs (RField t r' m) c s = (Ok (HVar fid), s).
Proof. intros Hr Ec Hk Hv Hl. rewrite (field_of_a_record t m Hr Ec Hk Hv), (bind_ok Hl). reflexivity. Qed.

Theorem field_resolves_to_the_records_own_array t r' m c s id cl tn rc aid :
  ev_resolve (evs_at ped repl lim fuel) r' c s = (Ok (HVar id), s) -> nm_get id (s_cells s) = Some cl ->
  dk (c_type cl) = KRec -> c_val cl = PRec tn rc -> lookup_var rc (tval m) false s = (Ok None, s) -> lookup_arr rc (tval m) false s = (Ok (Some aid), s) ->
  rs (RField t r' m) c s = (Ok (HArr aid), s).
Proof. intros Hr Ec Hk Hv Hl Ha. rewrite (field_of_a_record t m Hr Ec Hk Hv), (bind_ok Hl), (bind_ok Ha). reflexivity. Qed.

Theorem undeclared_field_is_an_error t r' m c s id cl tn rc :
  ev_resolve (evs_at ped repl lim fuel) r' c s = (Ok (HVar id), s) -> nm_get id (s_cells s) = Some cl ->
  dk (c_type cl) = KRec -> c_val cl = PRec tn rc -> lookup_var rc (tval m) false s = (Ok None, s) -> lookup_arr rc (tval m) false s = (Ok None, s) ->
  exists f, rs (RField t r' m) c s = (Fail f, s).
Proof. intros Hr Ec Hk Hv Hl Ha. rewrite (field_of_a_record t m Hr Ec Hk Hv), (bind_ok Hl), (bind_ok Ha). apply rt_error_pure. Qed.

Theorem field_of_a_non_record_is_an_error t r' m c s id cl :
  ev_resolve (evs_at ped repl lim fuel) r' c s = (Ok (HVar id), s) -> nm_get id (s_cells s) = Some cl -> dk (c_type cl) <> KRec ->
  exists f, rs (RField t r' m) c s = (Fail f, s).
Proof.
  intros Hr Ec Hk%dt_is_false. rewrite resolve_S. cbn [resolve_body]. rewrite (bind_ok Hr), (bind_ok (get_cell_at Ec)), Hk. apply rt_error_pure.
Qed.
Theorem field_of_an_array_is_an_error t r' m c s aid :
  ev_resolve (evs_at ped repl lim fuel) r' c s = (Ok (HArr aid), s) -> exists f, rs (RField t r' m) c s = (Fail f, s).
Proof. intros Hr. rewrite resolve_S. cbn [resolve_body]. rewrite (bind_ok Hr). apply rt_error_pure. Qed.
End Field.
