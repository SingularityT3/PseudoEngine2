(* Lemmas_ConstThm.v -- the knot over the fuel (evs_at_ok: every evaluation function at every level satisfies its triple) and what
   follows for whole blocks, runs and REPL entries: the heap invariant holds initially and is kept, what existed is kept (protected
   constants with their value), cells and results are of their declared kind and user type, the two excluded aborts are never
   reached; and what the statement CONSTANT c = <literal> creates. *)
From PE2 Require Import Run Lemmas_Copy Lemmas_DeepCopy Lemmas_Frame Lemmas_Out Lemmas_Scope Lemmas_ConstLogic Lemmas_ConstEval Lemmas_ConstExpr.
Local Open Scope N_scope.

Lemma evs_at_ok ped repl lim fuel : evs_ok (evs_at ped repl lim fuel).
Proof.
  induction fuel as [|f IH]; cbn [evs_at].
  - constructor; intros; (apply tr_failm; exact I).
  - constructor; cbn [evs_step ev_eval ev_resolve ev_case_equals ev_case_range ev_run_block ev_new_var ev_new_array ev_bind_args ev_call_procedure ev_call_function]; intros.
    + apply tr_eval_body; assumption.
    + apply tr_resolve_body; assumption.
    + apply tr_case_equals_body; assumption.
    + apply tr_case_range_body; assumption.
    + apply tr_run_block_body; assumption.
    + apply tr_new_var_body; assumption.
    + apply tr_new_array_body; assumption.
    + apply tr_bind_args_body; assumption.
    + apply tr_call_procedure_body; assumption.
    + apply tr_call_function_body; assumption.
Qed.

Theorem run_block_keeps ped repl lim fuel bl c s : Inv s ->
  Inv (snd (run_block ped repl lim fuel bl c s)) /\ K s (snd (run_block ped repl lim fuel bl c s)).
Proof.
  intros HI. destruct (ok_run_block _ (evs_at_ok ped repl lim fuel) (fun _ => True) bl c stable_true s HI I) as [A [B _]]. split; assumption.
Qed.

(* a CONSTANT of primitive type owned by an ordinary context holds the same cell -- name, type, flag, owner and VALUE -- after any block *)
Corollary protected_constant_unchanged ped repl lim fuel bl c s id cl : Inv s ->
  nm_get id (s_cells s) = Some cl -> c_const cl = true -> prim_kind (dk (c_type cl)) = true -> plain_ctx s (c_owner cl) ->
  nm_get id (s_cells (snd (run_block ped repl lim fuel bl c s))) = Some cl.
Proof.
  intros HI E C1 C2 C3. destruct (run_block_keeps ped repl lim fuel bl c s HI) as [_ HK].
  apply (k_prot _ _ HK id cl E). repeat split; assumption.
Qed.

(* the premise holds in the initial state of every run *)
Lemma Inv_init stdin fs rnd : Inv (init_state stdin fs rnd).
Proof.
  apply Inv_entries. split; [apply hb_init|]. unfold init_state. cbn [s_cells s_arrs s_ctxs]. split; [|split].
  - intros id cl E. rewrite nm_get_empty in E. discriminate.
  - intros a ar E. rewrite nm_get_empty in E. discriminate.
  - intros c cx E. destruct (put_other _ _ _ _ _ E) as [E'|[_ ->]]; [rewrite nm_get_empty in E'; discriminate|].
    split; [intros Hr; discriminate Hr|intros r Er; discriminate Er].
Qed.

(* after any block, every cell that exists holds a payload of the kind its declared type says *)
Corollary cells_hold_values_of_their_type ped repl lim fuel bl c s id cl : Inv s ->
  nm_get id (s_cells (snd (run_block ped repl lim fuel bl c s))) = Some cl -> payload_kind (c_val cl) = dk (c_type cl).
Proof.
  intros HI E. destruct (run_block_keeps ped repl lim fuel bl c s HI) as [HI' _]. exact (i_kind _ HI' id cl E).
Qed.
(* ... and, for an enumerated, pointer or record value, of the user type of that NAME *)
Corollary cells_hold_values_of_their_named_type ped repl lim fuel bl c s id cl : Inv s ->
  nm_get id (s_cells (snd (run_block ped repl lim fuel bl c s))) = Some cl -> named_ok (c_val cl) (c_type cl).
Proof.
  intros HI E. destruct (run_block_keeps ped repl lim fuel bl c s HI) as [HI' _]. exact (i_name _ HI' id cl E).
Qed.
(* in particular: a variable never holds a value of another enumerated type than its own *)
Corollary enum_variables_hold_their_own_type ped repl lim fuel bl c s id cl tn i : Inv s ->
  nm_get id (s_cells (snd (run_block ped repl lim fuel bl c s))) = Some cl -> c_val cl = PEnum tn i ->
  dk (c_type cl) = KEnum /\ dname (c_type cl) = Some tn.
Proof.
  intros HI E Ev. split.
  - rewrite <- (cells_hold_values_of_their_type ped repl lim fuel bl c s id cl HI E). rewrite Ev. reflexivity.
  - apply (cells_hold_values_of_their_named_type ped repl lim fuel bl c s id cl HI E). rewrite Ev. reflexivity.
Qed.
(* a value an expression or statement returns is of the kind its result type says, and the state it leaves satisfies the invariant again *)
Theorem results_are_of_their_type ped repl lim fuel n c s r s' p : Inv s ->
  ev_eval (evs_at ped repl lim fuel) n c s = (Ok r, s') -> r_val r = Some p -> payload_kind p = dk (r_type r) /\ named_ok p (r_type r) /\ Inv s'.
Proof.
  intros HI E Ev. destruct (ok_eval _ (evs_at_ok ped repl lim fuel) (fun _ => True) n c stable_true s HI I) as [A [_ B]]. rewrite E in A, B. cbn [fst snd] in A, B. split; [exact (proj1 (proj2 (B p Ev)))|split; [exact (proj2 (proj2 (B p Ev)))|exact A]].
Qed.

(* ---- CONSTANT c = <literal> in an ordinary context creates such a cell ---- *)
Definition is_literal (v : node) : bool := match v with NInt _ | NReal _ | NBool _ | NChar _ | NStr _ => true | _ => false end.

Lemma literal_result ped repl lim f v c s r s' : is_literal v = true ->
  ev_eval (evs_at ped repl lim (S f)) v c s = (Ok r, s') -> s' = s /\ prim_kind (dk (r_type r)) = true /\ exists p, r_val r = Some p.
Proof.
  intros Hl E. destruct v; try discriminate Hl; cbn [evs_at evs_step ev_eval eval_body] in E.
  - inversion E; subst. cbn. eauto.
  - destruct (stod_literal (tval t)); inversion E; subst. cbn. eauto.
  - destruct (tt t); inversion E; subst; cbn; eauto.
  - destruct (tval t); inversion E; subst; cbn; eauto.
  - inversion E; subst. cbn. eauto.
Qed.

Theorem constant_statement_creates_a_protected_cell ped repl lim f t v id c s r s' :
  is_literal v = true -> plain_ctx s c ->
  ev_eval (evs_at ped repl lim (S (S f))) (NConst t v id) c s = (Ok r, s') ->
  exists cl, nm_get (s_next s) (s_cells s') = Some cl /\ protected_cell s' cl /\ c_name cl = tval id /\
             (exists cx, nm_get c (s_ctxs s') = Some cx /\ In (tval id, s_next s) (x_vars cx)).
Proof.
  intros Hl [cx [Ec Hk]] E. cbn [evs_at evs_step ev_eval] in E. unfold eval_body at 1 in E.
  apply bind_inv in E. destruct E as [rv [s1 [E1 E]]].
  change (evs_step ped repl lim (evs_at ped repl lim f)) with (evs_at ped repl lim (S f)) in E1.
  destruct (literal_result ped repl lim f v c s rv s1 Hl E1) as [-> [Hp [p Ep]]].
  apply bind_inv in E. destruct E as [ex [s2 [E2 E]]].
  assert (s2 = s) by (apply lookup_var_spec in E2; tauto). subst s2.
  destruct ex as [i|]; [destruct (@rt_error_fails result t c s) as [fl [s3 X]]; rewrite X in E; discriminate|].
  destruct (dt_is (r_type rv) KNone) eqn:Hn; [discriminate|].
  apply bind_inv in E. destruct E as [p' [s3 [E3 E]]]. unfold as_payload in E3. rewrite Ep in E3. inversion E3; subst p' s3. clear E3.
  apply bind_inv in E. destruct E as [nid [s3 [E3 E]]]. unfold fresh in E3. inversion E3; subst nid s3. clear E3.
  apply bind_inv in E. destruct E as [u [s3 [E3 E]]]. unfold put_cell, modify in E3. inversion E3; subst s3. clear E3.
  apply bind_inv in E. destruct E as [u2 [s4 [E4 E]]]. inversion E; subst. clear E.
  unfold add_var, upd_ctx, bind, get_ctx in E4. cbn [s_ctxs set_cells set_next] in E4. rewrite Ec in E4. unfold put_ctx, modify in E4. inversion E4; subst s'. clear E4.
  exists (mkCell (tval id) (r_type rv) true c p). cbn [s_cells set_ctxs set_cells]. split; [apply nm_get_put_same|]. split; [|split; [reflexivity|]].
  - split; [reflexivity|]. split; [exact Hp|]. cbn [c_owner]. exists (ctx_with_vars (x_vars cx ++ [(tval id, s_next s)]) cx). cbn [s_ctxs set_ctxs]. split; [apply nm_get_put_same|exact Hk].
  - exists (ctx_with_vars (x_vars cx ++ [(tval id, s_next s)]) cx). cbn [s_ctxs set_ctxs]. split; [apply nm_get_put_same|]. cbn. apply in_or_app. right. left. reflexivity.
Qed.

(* ---- one whole entry of a session (lex + parse + run as the main block): whatever it is and however it ends, what was
   established before it is still there ---- *)
Lemma heap_same_emit_warnings ws s : heap_same s (emit_warnings ws s).
Proof.
  unfold emit_warnings. generalize (rev ws). intros l. revert s. induction l as [|w r IH]; intros s; cbn [fold_left]; [apply heap_same_refl|].
  eapply heap_same_trans; [|apply IH]. repeat split.
Qed.
Lemma IK_heap_same s s' s'' : Inv s' /\ K s s' -> heap_same s' s'' -> Inv s'' /\ K s s''.
Proof. intros [A B] H. split; [eapply Inv_heap_same; eauto|eapply K_trans; [exact B|apply K_heap_same; exact H]]. Qed.

Theorem run_main_keeps ped lim fuel repl b root s : Inv s ->
  Inv (snd (run_main ped lim fuel repl b root s)) /\ K s (snd (run_main ped lim fuel repl b root s)).
Proof.
  intros HI. unfold run_main. pose proof (run_block_keeps ped repl lim fuel b root s HI) as H.
  destruct (run_block ped repl lim fuel b root s) as [[u|f] s'] eqn:E; cbn [snd] in H |- *; [exact H|].
  assert (RT : forall t, Inv (snd (@rt_error unit t root s')) /\ K s (snd (@rt_error unit t root s'))).
  { intros t. pose proof (@ro_runtime_error_cls unit EOther t root s') as R. unfold rt_error. rewrite R. exact H. }
  destruct f; cbn [snd]; try exact H.
  (* BREAK and CONTINUE outside every loop become a runtime error *)
  all: specialize (RT t); destruct (@rt_error unit t root s') as [[x|[]] s'']; cbn [snd] in *; exact RT.
Qed.

Theorem run_source_keeps ped lim fuel repl src root s : Inv s ->
  Inv (snd (run_source ped lim fuel repl src root s)) /\ K s (snd (run_source ped lim fuel repl src root s)).
Proof.
  intros HI. unfold run_source. destruct (lex ped src) as [toks|e]; cbn [snd].
  2:{ eapply IK_heap_same; [split; [exact HI|apply K_refl]|repeat split]. }
  destruct (parse_program ped toks) as [b ps|k t ps|]; cbn [snd].
  - assert (H1 : Inv (emit_warnings (p_warns ps) s) /\ K s (emit_warnings (p_warns ps) s)).
    { eapply IK_heap_same; [split; [exact HI|apply K_refl]|apply heap_same_emit_warnings]. }
    destruct H1 as [I1 K1]. pose proof (run_main_keeps ped lim fuel repl b root _ I1) as [I2 K2].
    destruct (run_main ped lim fuel repl b root (emit_warnings (p_warns ps) s)) as [[|d|st0] s2]; cbn [snd] in *;
      try (split; [exact I2|eapply K_trans; eauto]).
    eapply IK_heap_same; [split; [exact I2|eapply K_trans; eauto]|repeat split].
  - eapply IK_heap_same; [eapply IK_heap_same; [split; [exact HI|apply K_refl]|apply heap_same_emit_warnings]|repeat split].
  - split; [exact HI|apply K_refl].
Qed.

(* what "K" says of cells and arrays, spelled out: after any entry -- successful, rejected by the lexer or the parser, or failing at run time half-way
   through -- every variable that existed still exists with its name, type, CONSTANT flag and owner; every protected constant has
   its value; every array that existed is the same array (bounds, element type, element cells) *)
Corollary entry_keeps_variables_constants_arrays ped lim fuel repl src root s : Inv s ->
  let s' := snd (run_source ped lim fuel repl src root s) in
  (forall id cl, nm_get id (s_cells s) = Some cl -> exists cl', nm_get id (s_cells s') = Some cl' /\ same_meta cl cl') /\
  (forall id cl, nm_get id (s_cells s) = Some cl -> protected_cell s cl -> nm_get id (s_cells s') = Some cl) /\
  (forall id a, nm_get id (s_arrs s) = Some a -> nm_get id (s_arrs s') = Some a).
Proof.
  intros HI s'. destruct (run_source_keeps ped lim fuel repl src root s HI) as [_ HK]. fold s' in HK.
  split; [exact (k_meta _ _ HK)|]. split; [exact (k_prot _ _ HK)|exact (k_arr _ _ HK)].
Qed.

Corollary array_elements_are_variables_of_the_element_type ped repl lim fuel bl c s a ar e : Inv s ->
  nm_get a (s_arrs (snd (run_block ped repl lim fuel bl c s))) = Some ar -> In e (a_elems ar) ->
  exists cl, nm_get e (s_cells (snd (run_block ped repl lim fuel bl c s))) = Some cl /\ c_const cl = false /\ c_type cl = a_type ar.
Proof. intros HI E Hin. destruct (run_block_keeps ped repl lim fuel bl c s HI) as [HI' _]. exact (i_elems _ HI' a ar e E Hin). Qed.
Corollary record_values_own_a_record_context ped repl lim fuel bl c s id cl tn rc : Inv s ->
  nm_get id (s_cells (snd (run_block ped repl lim fuel bl c s))) = Some cl -> c_val cl = PRec tn rc ->
  rec_ctx (snd (run_block ped repl lim fuel bl c s)) rc /\ dk (c_type cl) = KRec /\ dname (c_type cl) = Some tn.
Proof.
  intros HI E Ev. destruct (run_block_keeps ped repl lim fuel bl c s HI) as [HI' _]. split; [eapply (i_recval _ HI'); eauto|]. split.
  - rewrite <- (i_kind _ HI' id cl E). rewrite Ev. reflexivity.
  - apply (i_name _ HI' id cl E). rewrite Ev. reflexivity.
Qed.

(* ---- no type confusion: whatever a block or an expression does, it ends in a value or in a failure that is ok: never in the abort
   that stands for "a variable's cell holds an object of another class than its declared type says" (in the C++: a static_cast to
   the wrong class; the sites are in assignment to enumerated / pointer / record variables, FOR, pointer assignment, dereference and
   field access, each excluded by the kind clause of the heap invariant), nor in the abort of Variable::set ("payload reinterpreted as
   another type": a field-wise or element-wise copy never meets a destination of another kind than the value copied into it -- the
   layout comparison before the copy has established it). ---- *)
Theorem run_block_ends_ok ped repl lim fuel bl c s : Inv s -> ok_out (fst (run_block ped repl lim fuel bl c s)).
Proof.
  intros HI. destruct (ok_run_block _ (evs_at_ok ped repl lim fuel) (fun _ => True) bl c stable_true s HI I) as [_ [_ O]]. unfold run_block. destruct (fst _); [exact I|exact O].
Qed.
Theorem eval_ends_ok ped repl lim fuel n c s : Inv s -> ok_out (fst (ev_eval (evs_at ped repl lim fuel) n c s)).
Proof.
  intros HI. destruct (ok_eval _ (evs_at_ok ped repl lim fuel) (fun _ => True) n c stable_true s HI I) as [_ [_ O]]. destruct (fst _); [exact I|exact O].
Qed.
Lemma ok_out_not_bad {A} (o : outcome A) w : bad_site w = true -> ok_out o -> o <> Fail (FCrash w).
Proof. intros B O ->. cbn in O. congruence. Qed.
