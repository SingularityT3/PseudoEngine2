(* Lemmas_CallStates.v -- RETURN, statement by statement, in every state: outside a function it is a runtime error that leaves the
   whole state as it was; inside a function it records the value converted to the declared return type in the function's own
   context (nothing else changes) and ends the body with the return signal; a value that is not convertible is a runtime error.
   The returned expression is any that evaluates without touching the state. *)
From PE2 Require Import Eval Lemmas_Store.
Local Open Scope N_scope.

Section Return.
Variables (ped repl : bool) (lim : limits) (fuel : nat).
Notation ev := (ev_eval (evs_at ped repl lim (S fuel))).

Theorem return_outside_a_function_is_an_error t e c s cx :
  nm_get c (s_ctxs s) = Some cx -> x_isfun cx = false -> exists f, ev (NReturn t e) c s = (Fail f, s).
Proof.
  intros Ec Hf. rewrite eval_S. cbn [eval_body]. rewrite (bind_ok (get_ctx_at Ec)), Hf. apply rt_error_pure.
Qed.

(* RETURN inside a function, up to the type test: the value, then the converted value, are recorded in the function's own context *)
Lemma return_in_a_function t e c s cx r r' :
  nm_get c (s_ctxs s) = Some cx -> x_isfun cx = true ->
  ev_eval (evs_at ped repl lim fuel) e c s = (Ok r, s) ->
  (forall s0, implicit_cast (x_rettype cx) r s0 = (Ok r', s0)) ->
  let s1 := set_ctxs (nm_put c (ctx_with_retval (Some r) cx) (s_ctxs s)) s in
  let s2 := set_ctxs (nm_put c (ctx_with_retval (Some r') (ctx_with_retval (Some r) cx)) (s_ctxs s1)) s1 in
  ev (NReturn t e) c s = (if negb (dt_eq (r_type r') (x_rettype cx)) then rt_error t c else failm FReturn) s2.
Proof.
  intros Ec Hf He Hc s1 s2. rewrite eval_S. cbn [eval_body]. rewrite (bind_ok (get_ctx_at Ec)), Hf. cbn [negb].
  rewrite (bind_ok He), (bind_ok (upd_ctx_at _ Ec)), (bind_ok (Hc _)). fold s1.
  assert (E1 : nm_get c (s_ctxs s1) = Some (ctx_with_retval (Some r) cx)) by apply nm_get_put_same.
  rewrite (bind_ok (upd_ctx_at _ E1)). reflexivity.
Qed.

Theorem return_records_the_converted_value t e c s cx r r' :
  nm_get c (s_ctxs s) = Some cx -> x_isfun cx = true ->
  ev_eval (evs_at ped repl lim fuel) e c s = (Ok r, s) ->
  (forall s0, implicit_cast (x_rettype cx) r s0 = (Ok r', s0)) -> dt_eq (r_type r') (x_rettype cx) = true ->
  let s1 := set_ctxs (nm_put c (ctx_with_retval (Some r) cx) (s_ctxs s)) s in
  let s2 := set_ctxs (nm_put c (ctx_with_retval (Some r') (ctx_with_retval (Some r) cx)) (s_ctxs s1)) s1 in
  ev (NReturn t e) c s = (Fail FReturn, s2).
Proof. intros Ec Hf He Hc Ht. cbv zeta. rewrite (return_in_a_function t e c s cx r r' Ec Hf He Hc), Ht. reflexivity. Qed.

Theorem return_of_a_value_of_another_type_is_an_error t e c s cx r r' :
  nm_get c (s_ctxs s) = Some cx -> x_isfun cx = true ->
  ev_eval (evs_at ped repl lim fuel) e c s = (Ok r, s) ->
  (forall s0, implicit_cast (x_rettype cx) r s0 = (Ok r', s0)) -> dt_eq (r_type r') (x_rettype cx) = false ->
  let s1 := set_ctxs (nm_put c (ctx_with_retval (Some r) cx) (s_ctxs s)) s in
  let s2 := set_ctxs (nm_put c (ctx_with_retval (Some r') (ctx_with_retval (Some r) cx)) (s_ctxs s1)) s1 in
  ev (NReturn t e) c s = rt_error t c s2.
Proof. intros Ec Hf He Hc Ht. cbv zeta. rewrite (return_in_a_function t e c s cx r r' Ec Hf He Hc), Ht. reflexivity. Qed.
End Return.
