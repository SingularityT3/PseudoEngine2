(* Lemmas_Enums.v — enum_arith is (position ± k) mod n (C19). *)
From PE2 Require Import Enums.
Local Open Scope Z_scope.

(* truncated remainders are congruent to their arguments, and the final correction makes the result the floored one *)
Lemma enum_arith_spec plus l r n : 0 < n ->
  enum_arith plus l r n = (if plus then l + r else l - r) mod n.
Proof.
  intros H. unfold enum_arith.
  set (s := if plus then Z.rem l n + Z.rem r n else Z.rem l n - Z.rem r n).
  set (t := if plus then l + r else l - r).
  pose proof (Z.quot_rem' l n) as E1. pose proof (Z.quot_rem' r n) as E2. pose proof (Z.quot_rem' s n) as E3.
  pose proof (Z.rem_bound_abs s n ltac:(lia)) as B.
  assert (Hs : exists q, s = t + q * n).
  { unfold s, t. destruct plus; [exists (- (l ÷ n) - r ÷ n)|exists (r ÷ n - l ÷ n)]; lia. }
  destruct Hs as [q E4].
  destruct (Z.rem s n <? 0) eqn:E.
  - apply (Zmod_unique t n (s ÷ n - q - 1)); lia.
  - apply (Zmod_unique t n (s ÷ n - q)); lia.
Qed.
