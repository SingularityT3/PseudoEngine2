(* Lemmas_Traceback.v -- what a runtime diagnostic says: the line and column of the token it was raised at, as its position and as the
   first frame of the traceback (named after the context the failing statement ran in), followed by one frame for every ancestor
   context that is switched out at a call -- its name and the line and column of that call -- innermost first, up to the program. *)
From PE2 Require Import Eval Lemmas_Store.
Local Open Scope N_scope.

(* the frames of the ancestors, read off the context table *)
Fixpoint frames (fuel : nat) (m : nmap ctx) (id : option N) : option (list (str * Z * Z)) :=
  match fuel with
  | O => Some []
  | S f => match id with
           | None => Some []
           | Some i => match nm_get i m with
                       | None => None
                       | Some c => match frames f m (x_parent c) with
                                   | None => None
                                   | Some rest => Some (match x_switch c with Some (l, k) => (x_name c, l, k) :: rest | None => rest end)
                                   end
                       end
           end
  end.

Lemma trace_aux_frames fuel : forall id s l, frames fuel (s_ctxs s) id = Some l -> trace_aux fuel id s = (Ok l, s).
Proof.
  induction fuel as [|f IH]; intros id s l H; cbn [frames trace_aux] in *; [inversion H; reflexivity|].
  destruct id as [i|]; [|inversion H; reflexivity].
  destruct (nm_get i (s_ctxs s)) as [c|] eqn:Ei; [|discriminate H]. rewrite (bind_ok (get_ctx_at Ei)).
  destruct (frames f (s_ctxs s) (x_parent c)) as [rest|] eqn:E; [|discriminate H]. rewrite (bind_ok (IH _ _ _ E)). inversion H; reflexivity.
Qed.

(* S (x_depth cx) is the fuel runtime_error_cls gives the walk (Values.v) *)
Theorem runtime_error_names_the_failing_token {A} t c s cx rest :
  nm_get c (s_ctxs s) = Some cx -> frames (S (x_depth cx)) (s_ctxs s) (x_parent cx) = Some rest ->
  @rt_error A t c s = (Fail (FErr (mkDiag DRuntime (tline t) (tcol t) EOther ((x_name cx, tline t, tcol t) :: rest))), s).
Proof.
  intros Ec Hf. unfold rt_error, runtime_error_cls. rewrite (bind_ok (get_ctx_at Ec)), (bind_ok (trace_aux_frames _ _ _ _ Hf)). reflexivity.
Qed.

(* e.g. a failing statement in procedure Q called from P called from the program: three frames, innermost first *)
Example three_frames : forall t s q p root cq cp croot lp kp lr kr,
  nm_get q (s_ctxs s) = Some cq -> nm_get p (s_ctxs s) = Some cp -> nm_get root (s_ctxs s) = Some croot ->
  x_parent cq = Some p -> x_parent cp = Some root -> x_parent croot = None ->
  x_switch cp = Some (lp, kp) -> x_switch croot = Some (lr, kr) -> (2 <= x_depth cq)%nat ->
  @rt_error unit t q s = (Fail (FErr (mkDiag DRuntime (tline t) (tcol t) EOther
                                 [(x_name cq, tline t, tcol t); (x_name cp, lp, kp); (x_name croot, lr, kr)])), s).
Proof.
  intros t s q p root cq cp croot lp kp lr kr Eq Ep Er Pq Pp Pr Sp Sr Hd.
  apply runtime_error_names_the_failing_token; [exact Eq|]. rewrite Pq.
  destruct (x_depth cq) as [|[|d]]; try lia. cbn [frames]. rewrite Ep, Pp. cbn [frames]. rewrite Er, Pr.
  destruct d; cbn [frames]; rewrite Sp, Sr; reflexivity.
Qed.
