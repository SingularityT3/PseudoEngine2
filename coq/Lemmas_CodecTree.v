(* Lemmas_CodecTree.v — the record codec on whole value trees: load (dump v) = v for every well-formed
   value without REAL and pointer parts (records of records, arrays inside records, any nesting depth). *)
From PE2 Require Import Codec Lemmas_Codec Lemmas_Numerals.
Local Open Scope Z_scope.

(* a predicate on every element of a list, a relation between two lists element by element: what the local fixpoints of
   wf and shape below compute (and convertible with them) *)
Section All.
  Context {A : Type} (P : A -> Prop) (R : A -> A -> Prop).
  Fixpoint all (l : list A) : Prop := match l with [] => True | x :: r => P x /\ all r end.
  Fixpoint all2 (a b : list A) : Prop :=
    match a, b with [], [] => True | x :: r, y :: t => R x y /\ all2 r t | _, _ => False end.
  Lemma all2_length a : forall b, all2 a b -> List.length a = List.length b.
  Proof. induction a as [|x r IH]; intros [|y t] H; try contradiction; [reflexivity|]. cbn. f_equal. apply IH. apply H. Qed.
End All.
Lemma all_impl {A} {P Q : A -> Prop} : (forall x, P x -> Q x) -> forall l, all P l -> all Q l.
Proof. intros H. induction l as [|x r IH]; [exact (fun h => h)|]. intros [Hx Hr]. split; auto. Qed.

Lemma vtree_sub_ind (P : vtree -> Prop) :
  (forall v, match v with VRec _ fs ars => all P fs /\ all (all P) ars | _ => True end -> P v) -> forall v, P v.
Proof.
  intros H. fix IH 1. intros v. apply H. destruct v as [| | | | | | | |tn fs ars]; try exact I. split.
  - induction fs as [|x r IHr]; [exact I|]. split; [apply IH|exact IHr].
  - induction ars as [|a r IHr]; [exact I|]. split; [|exact IHr]. induction a as [|x t IHt]; [exact I|]. split; [apply IH|exact IHt].
Qed.

(* what follows a field: nothing, or a blank *)
Definition sep_ok (s : str) : Prop := s = [] \/ exists t, s = ch_space :: t.
Lemma sep_ok_nld s : sep_ok s -> no_leading_digit s.
Proof. intros [->|[t ->]]; [exact I|reflexivity]. Qed.
Lemma sep_ok_we s : sep_ok s -> word_end s.
Proof. intros [->|[t ->]]; [exact I|reflexivity]. Qed.
Lemma sep_ok_sp s : sep_ok (sp ++ s).
Proof. right. exists s. reflexivity. Qed.

Fixpoint join_blank (l : list str) : str := match l with [] => [] | x :: r => sp ++ x ++ join_blank r end.
Lemma join_sp_blank ds : ds <> [] -> sp ++ join_sp ds = join_blank ds.
Proof.
  induction ds as [|x r IH]; [congruence|]. intros _. destruct r as [|y t].
  - cbn. rewrite app_nil_r. reflexivity.
  - change (join_sp (x :: y :: t)) with (x ++ sp ++ join_sp (y :: t)).
    change (join_blank (x :: y :: t)) with (sp ++ x ++ join_blank (y :: t)). rewrite <- IH by discriminate. reflexivity.
Qed.
Lemma sep_ok_join_blank dt rest : sep_ok rest -> sep_ok (join_blank dt ++ rest).
Proof. intros H. destruct dt as [|d t]; [exact H|]. cbn [join_blank]. rewrite <- app_assoc. apply sep_ok_sp. Qed.

(* a list is written and read element by element, whatever the elements are: the fields of a record (values, dump / load)
   and its arrays (lists of values, dump_arr' / load_arr' below).  dump_seq dump is Codec.dump_list, load_seq load the
   loop load_list inside Codec.load. *)
Section Seq.
  Context {A : Type}.
  Variables (dumpE : A -> option str) (loadE : A -> str -> A * str * bool) (wfE : A -> Prop) (shapeE : A -> A -> Prop).

  Fixpoint dump_seq (l : list A) : option (list str) :=
    match l with
    | [] => Some []
    | x :: r => match dumpE x, dump_seq r with Some a, Some b => Some (a :: b) | _, _ => None end
    end.
  Fixpoint load_seq (l : list A) (s : str) : list A * str * bool :=
    match l with
    | [] => ([], s, true)
    | x :: t => let '(x', s', ok) := loadE x s in
                if ok then let '(t', s'', ok') := load_seq t s' in (x' :: t', s'', ok')
                else (x' :: t, s', false)
    end.

  Lemma dump_seq_cons x t ds : dump_seq (x :: t) = Some ds -> exists dx dt, dumpE x = Some dx /\ dump_seq t = Some dt /\ ds = dx :: dt.
  Proof. cbn [dump_seq]. destruct (dumpE x) as [dx|]; [|discriminate]. destruct (dump_seq t) as [dt|]; [|discriminate]. intros H; inversion H; eauto. Qed.
  Lemma dump_seq_nil l : dump_seq l = Some [] -> l = [].
  Proof. destruct l as [|a t]; [reflexivity|]. intros H. destruct (dump_seq_cons _ _ _ H) as (? & ? & _ & _ & E). discriminate. Qed.

  Lemma dump_seq_total l : all (fun x => wfE x -> exists dx, dumpE x = Some dx) l -> all wfE l -> exists ds, dump_seq l = Some ds.
  Proof.
    induction l as [|x t IH]; [eexists; reflexivity|]. intros [Hx Ht] [Wx Wt].
    destruct (Hx Wx) as [dx Ex]. destruct (IH Ht Wt) as [dt Et]. exists (dx :: dt). cbn [dump_seq]. rewrite Ex, Et. reflexivity.
  Qed.
  Lemma dump_seq_all (Q : str -> Prop) l : all (fun x => forall dx, wfE x -> dumpE x = Some dx -> Q dx) l -> all wfE l ->
    forall ds, dump_seq l = Some ds -> all Q ds.
  Proof.
    induction l as [|x t IH]; intros H W ds E; [inversion E; exact I|]. destruct H as [Hx Ht]. destruct W as [Wx Wt].
    destruct (dump_seq_cons _ _ _ E) as (dx & dt & Ex & Et & ->). split; [exact (Hx dx Wx Ex)|exact (IH Ht Wt dt Et)].
  Qed.

  Definition reads_back (x : A) : Prop :=
    forall old dx rest, wfE x -> shapeE old x -> dumpE x = Some dx -> sep_ok rest -> loadE old (dx ++ rest) = (x, rest, true).

  Hypothesis loadE_skip_blank : forall old s v r, loadE old s = (v, r, true) -> loadE old (sp ++ s) = (v, r, true).

  Lemma load_seq_rt : forall l olds ds rest, all reads_back l -> all wfE l -> all2 shapeE olds l -> dump_seq l = Some ds -> sep_ok rest ->
    load_seq olds (join_blank ds ++ rest) = (l, rest, true).
  Proof.
    induction l as [|x t IH]; intros olds ds rest HP Hwf Hsh Hd Hr.
    - destruct olds; [|contradiction]. inversion Hd. reflexivity.
    - destruct olds as [|o ot]; [contradiction|]. destruct HP as [Px Pt]. destruct Hsh as [Hs1 Hs2]. destruct Hwf as [Hw1 Hw2].
      destruct (dump_seq_cons _ _ _ Hd) as (dx & dt & E1 & E2 & ->).
      cbn [join_blank load_seq]. rewrite <- !app_assoc.
      rewrite (loadE_skip_blank o _ x (join_blank dt ++ rest)).
      + rewrite (IH ot dt rest) by assumption. reflexivity.
      + apply Px; try assumption. apply sep_ok_join_blank. exact Hr.
  Qed.

  Lemma load_seq_skip_blank l s x r : x <> [] -> load_seq l s = (x, r, true) -> load_seq l (sp ++ s) = (x, r, true).
  Proof.
    destruct l as [|a t]; [intros Hx H; inversion H; congruence|]. intros _. cbn [load_seq].
    destruct (loadE a s) as [[x' s'] ok] eqn:E. destruct ok.
    - rewrite (loadE_skip_blank a s x' s' E). exact (fun H => H).
    - discriminate.
  Qed.
End Seq.

(* the local fixpoints of dump / load on records, as global definitions (convertible with the local ones); the number of
   elements of an array is written, and compared on the way in, as slen' (map (fun _ => ch_nul) l) *)
Definition dump_arr' (l : list vtree) : option str :=
  match dump_seq dump l with
  | Some ds => Some (str_of_string "ARRAY " ++ z_to_str (slen' (map (fun _ => ch_nul) l)) ++ sp ++ join_sp ds)
  | None => None end.
Lemma dump_arr_inv a da : dump_arr' a = Some da ->
  exists ds, dump_seq dump a = Some ds /\ da = str_of_string "ARRAY " ++ z_to_str (Z.of_nat (List.length a)) ++ sp ++ join_sp ds.
Proof.
  unfold dump_arr', slen'. rewrite map_length. destruct (dump_seq dump a) as [ds|]; [|discriminate].
  intros H. exists ds. split; [reflexivity|congruence].
Qed.
Lemma dump_rec_unfold tn fields arrays :
  dump (VRec tn fields arrays) =
  match dump_seq dump fields, dump_seq dump_arr' arrays with
  | Some fs, Some ars => Some (str_of_string "COMPOSITE " ++ tn ++ sp ++ join_sp fs ++ (match ars with [] => [] | _ => sp end) ++ join_sp ars)
  | _, _ => None
  end.
Proof. reflexivity. Qed.
Lemma dump_rec_inv tn fs ars dx : dump (VRec tn fs ars) = Some dx ->
  exists dfs dars, dump_seq dump fs = Some dfs /\ dump_seq dump_arr' ars = Some dars /\
    dx = str_of_string "COMPOSITE " ++ tn ++ sp ++ join_sp dfs ++ (match dars with [] => [] | _ => sp end) ++ join_sp dars.
Proof.
  rewrite dump_rec_unfold. destruct (dump_seq dump fs) as [dfs|]; [|discriminate]. destruct (dump_seq dump_arr' ars) as [dars|]; [|discriminate].
  intros H. exists dfs, dars. repeat split. congruence.
Qed.

Definition load_arr' (l : list vtree) (s : str) : list vtree * str * bool :=
  match expect_tag "ARRAY" s with
  | Some r => match rd_size r with
              | Some (n, r') => if n =? slen' (map (fun _ => ch_nul) l) then load_seq load l r' else (l, r', false)
              | None => (l, r, false) end
  | None => (l, s, false) end.
Lemma load_rec_unfold tn fields arrays s :
  load (VRec tn fields arrays) s =
  match expect_tag "COMPOSITE" s with
  | Some r => match rd_word r with
              | Some (w, r1) =>
                if str_eqb w tn then
                  let '(fs, s1, ok1) := load_seq load fields r1 in
                  if ok1 then let '(ars, s2, ok2) := load_seq load_arr' arrays s1 in (VRec tn fs ars, s2, ok2)
                  else (VRec tn fs arrays, s1, false)
                else (VRec tn fields arrays, r1, false)
              | None => (VRec tn fields arrays, r, false) end
  | None => (VRec tn fields arrays, s, false)
  end.
Proof. reflexivity. Qed.

(* values the codec is exact on *)
Fixpoint wf (v : vtree) : Prop :=
  match v with
  | VInt z => int64_min <= z <= int64_max
  | VReal _ => False
  | VBool _ | VChar _ => True
  | VStr s => slen' (mark_newlines s) < two64
  | VDate d m y => 0 <= d <= 255 /\ 0 <= m <= 255 /\ -32768 <= y <= 32767
  | VEnum tn size idx => tn <> [] /\ no_space tn = true /\ 0 <= idx < size /\ size <= two64
  | VPtr => False
  | VRec tn fs ars =>
    tn <> [] /\ no_space tn = true /\ (fs <> [] \/ ars <> []) /\
    (fix all (l : list vtree) : Prop := match l with [] => True | x :: r => wf x /\ all r end) fs /\
    (fix alla (l : list (list vtree)) : Prop :=
       match l with
       | [] => True
       | a :: r => (a <> [] /\ Z.of_nat (List.length a) < two64 /\
                    (fix all (l : list vtree) : Prop := match l with [] => True | x :: r => wf x /\ all r end) a) /\ alla r
       end) ars
  end.
Definition wf_arr (a : list vtree) : Prop := a <> [] /\ Z.of_nat (List.length a) < two64 /\ all wf a.
Lemma wf_rec tn fs ars : wf (VRec tn fs ars) = (tn <> [] /\ no_space tn = true /\ (fs <> [] \/ ars <> []) /\ all wf fs /\ all wf_arr ars).
Proof. reflexivity. Qed.

(* the variable being loaded into has the type of the value: same constructors, same type names *)
Fixpoint shape (old v : vtree) : Prop :=
  match old, v with
  | VInt _, VInt _ | VBool _, VBool _ | VChar _, VChar _ | VStr _, VStr _ | VDate _ _ _, VDate _ _ _ => True
  | VEnum tn size _, VEnum tn' size' _ => tn = tn' /\ size = size'
  | VRec tn fs ars, VRec tn' fs' ars' =>
    tn = tn' /\
    (fix all2 (a b : list vtree) : Prop := match a, b with [], [] => True | x :: r, y :: t => shape x y /\ all2 r t | _, _ => False end) fs fs' /\
    (fix alla2 (a b : list (list vtree)) : Prop :=
       match a, b with
       | [], [] => True
       | x :: r, y :: t =>
         (fix all2 (a b : list vtree) : Prop := match a, b with [], [] => True | x :: r, y :: t => shape x y /\ all2 r t | _, _ => False end) x y /\ alla2 r t
       | _, _ => False
       end) ars ars'
  | _, _ => False
  end.
Lemma shape_rec tn fs ars tn' fs' ars' :
  shape (VRec tn fs ars) (VRec tn' fs' ars') = (tn = tn' /\ all2 shape fs fs' /\ all2 (all2 shape) ars ars').
Proof. reflexivity. Qed.

Lemma load_skip_blank old s v r : load old s = (v, r, true) -> load old (sp ++ s) = (v, r, true).
Proof.
  destruct old; try rewrite !load_rec_unfold; cbn [load]; rewrite ?expect_tag_skip_blank;
  try (match goal with |- context [expect_tag ?t s] => destruct (expect_tag t s) end; [exact (fun H => H)|discriminate]).
  discriminate.
Qed.
Lemma load_arr_skip_blank a s x r : load_arr' a s = (x, r, true) -> load_arr' a (sp ++ s) = (x, r, true).
Proof. unfold load_arr'. rewrite expect_tag_skip_blank. destruct (expect_tag "ARRAY" s); [exact (fun H => H)|discriminate]. Qed.

Definition exact_on : vtree -> Prop := reads_back dump load wf shape.

Lemma exact_on_scalar v dx0 : dump v = Some dx0 ->
  (forall old rest, wf v -> shape old v -> sep_ok rest -> load old (dx0 ++ rest) = (v, rest, true)) -> exact_on v.
Proof. intros E H old dx rest Hw Hs Hd Hr. rewrite E in Hd. injection Hd as <-. auto. Qed.

Lemma arr_exact a : all exact_on a -> reads_back dump_arr' load_arr' wf_arr (all2 shape) a.
Proof.
  intros HP olda da rest (Hne & Hlen & Hwf) Hsh Hd Hr. destruct (dump_arr_inv a da Hd) as (ds & E & ->).
  unfold load_arr'. rewrite <- !app_assoc, (expect_tag_app "ARRAY") by (discriminate || reflexivity).
  unfold rd_size, slen'. rewrite map_length, rd_integer_after_blank by (unfold two64 in *; lia || reflexivity).
  rewrite (all2_length _ _ _ Hsh), Z.eqb_refl.
  assert (Hds : ds <> []) by (intros ->; apply dump_seq_nil in E; contradiction).
  rewrite app_assoc, join_sp_blank by exact Hds. apply (load_seq_rt dump load wf shape load_skip_blank); assumption.
Qed.

Lemma rec_exact tn fs ars : all exact_on fs -> all (all exact_on) ars -> exact_on (VRec tn fs ars).
Proof.
  intros PF PA old dx rest Hwf Hsh Hd Hr. destruct old as [| | | | | | | |tn0 fs0 ars0]; try contradiction.
  rewrite wf_rec in Hwf. destruct Hwf as (Htn & Hns & Hne & Hwf1 & Hwf2).
  rewrite shape_rec in Hsh. destruct Hsh as (-> & Hs1 & Hs2).
  destruct (dump_rec_inv tn fs ars dx Hd) as (dfs & dars & E1 & E2 & ->).
  apply (all_impl arr_exact) in PA.
  rewrite load_rec_unfold, <- !app_assoc, (expect_tag_app "COMPOSITE") by (discriminate || reflexivity).
  rewrite rd_word_skip_blank, rd_word_app, str_eqb_refl by (assumption || reflexivity).
  set (tail := (match dars with [] => [] | _ => sp end) ++ join_sp dars ++ rest).
  assert (Htail : sep_ok tail).
  { unfold tail. destruct dars; [exact Hr|apply sep_ok_sp]. }
  assert (Harrs : load_seq load_arr' ars0 tail = (ars, rest, true)).
  { unfold tail. destruct dars as [|da dt] eqn:Edars.
    - apply dump_seq_nil in E2. subst ars. destruct ars0; [|contradiction]. reflexivity.
    - rewrite app_assoc, join_sp_blank by discriminate.
      apply (load_seq_rt dump_arr' load_arr' wf_arr (all2 shape) load_arr_skip_blank); assumption. }
  destruct dfs as [|df dt] eqn:Edfs.
  + (* no fields: then there are arrays, and the stream has one more blank in front *)
    apply dump_seq_nil in E1. subst fs. destruct fs0; [|contradiction]. cbn [join_sp app load_seq].
    destruct Hne as [H|H]; [congruence|]. rewrite (load_seq_skip_blank load_arr' load_arr_skip_blank ars0 tail ars rest H Harrs). reflexivity.
  + rewrite (app_assoc sp), join_sp_blank by discriminate.
    rewrite (load_seq_rt dump load wf shape load_skip_blank fs fs0 (df :: dt) tail PF Hwf1 Hs1 E1 Htail), Harrs. reflexivity.
Qed.

(* load (dump v) = v, inside a longer line: whatever follows the value (nothing, or a blank and more fields) is left untouched *)
Theorem codec_exact : forall v, exact_on v.
Proof.
  induction v as [v IH] using vtree_sub_ind.
  destruct v as [z|r|b|c|s|d m y|tn size idx| |tn fs ars];
    [|intros ? ? ? []| | | | | |intros ? ? ? []|apply rec_exact; apply IH];
  (eapply exact_on_scalar; [reflexivity|]); intros old rest Hwf Hsh Hr; destruct old; try contradiction; rewrite <- ?app_assoc;
  pose proof (sep_ok_nld _ Hr); pose proof (sep_ok_we _ Hr).
  - apply int_field_roundtrip; assumption.
  - apply bool_field_roundtrip; assumption.
  - apply char_field_exact.
  - apply string_field_roundtrip; assumption.
  - apply date_field_roundtrip; (assumption || apply Hwf).
  - destruct Hsh as [-> ->]. apply enum_field_roundtrip; (assumption || apply Hwf).
Qed.

(* a value written as one record line reads back as itself *)
Theorem record_roundtrip v old dx : wf v -> shape old v -> dump v = Some dx -> load old dx = (v, [], true).
Proof. intros Hw Hs Hd. rewrite <- (app_nil_r dx). apply (codec_exact v old dx []); auto. left. reflexivity. Qed.

(* and every well-formed value can be written *)
Lemma arr_dumps a : all (fun x => wf x -> exists dx, dump x = Some dx) a -> wf_arr a -> exists da, dump_arr' a = Some da.
Proof. intros H (_ & _ & Hw). unfold dump_arr'. destruct (dump_seq_total dump wf a H Hw) as [ds ->]. eexists. reflexivity. Qed.

Theorem wf_dumps : forall v, wf v -> exists dx, dump v = Some dx.
Proof.
  induction v as [v IH] using vtree_sub_ind. intros Hwf.
  destruct v as [z|r|b|c|s|d m y|tn size idx| |tn fs ars]; try contradiction; try (eexists; reflexivity).
  rewrite wf_rec in Hwf. destruct Hwf as (_ & _ & _ & Hwf1 & Hwf2). destruct IH as [IHf IHa].
  destruct (dump_seq_total dump wf fs IHf Hwf1) as [dfs Efs].
  destruct (dump_seq_total dump_arr' wf_arr ars (all_impl arr_dumps ars IHa) Hwf2) as [dars Ears].
  rewrite dump_rec_unfold, Efs, Ears. eexists. reflexivity.
Qed.
