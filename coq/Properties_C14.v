(* Properties_C14.v — a random file is a stable, 1-based sequence of independent records.
   The handle operations are the functions the evaluator calls (Files.v: rf_seek, rf_put, rf_get).
   Stability across CLOSEFILE/OPENFILE and restart is the record <-> line mapping of Codec.v
   (store_records at close, load_records at open): proved for every sequence of records in which each record is
   line safe, not empty and does not start with '#' -- which every value the codec writes is (Properties_C13). *)
From PE2 Require Import Files Lemmas_Files Lemmas_Codec Lemmas_RecLines Eval Run Lemmas_RandStates.
Local Open Scope Z_scope.

Theorem C14_seek_exact : forall f k, (exists f', rf_seek f k = Some f') <-> 1 <= k <= nrecs f + 1.
Proof. exact seek_exact. Qed.
Print Assumptions C14_seek_exact.

Theorem C14_seek_only_moves_cursor : forall f k f', rf_seek f k = Some f' -> cursor f' = k /\ of_recs f' = of_recs f /\ handle_ok f'.
Proof. exact seek_effect. Qed.
Print Assumptions C14_seek_only_moves_cursor.

Theorem C14_put_replaces : forall f txt, handle_ok f -> cursor f <= nrecs f ->
  nrecs (rf_put f txt) = nrecs f /\ nth_z (of_recs (rf_put f txt)) (of_ptr f) = Some txt /\
  (forall j, j <> of_ptr f -> nth_z (of_recs (rf_put f txt)) j = nth_z (of_recs f) j) /\ cursor (rf_put f txt) = cursor f.
Proof. exact put_replace. Qed.
Print Assumptions C14_put_replaces.

Theorem C14_put_appends : forall f txt, handle_ok f -> cursor f = nrecs f + 1 ->
  nrecs (rf_put f txt) = nrecs f + 1 /\ nth_z (of_recs (rf_put f txt)) (of_ptr f) = Some txt /\
  (forall j, 0 <= j < nrecs f -> nth_z (of_recs (rf_put f txt)) j = nth_z (of_recs f) j) /\ cursor (rf_put f txt) = cursor f.
Proof. exact put_append. Qed.
Print Assumptions C14_put_appends.

Theorem C14_get_at_end_error : forall f, handle_ok f -> cursor f = nrecs f + 1 -> rf_get f = None.
Proof. intros f _. apply get_at_end_error. Qed.
Print Assumptions C14_get_at_end_error.

Theorem C14_get_in_range : forall f, handle_ok f -> cursor f <= nrecs f -> exists r, rf_get f = Some r.
Proof. exact get_in_range. Qed.
Print Assumptions C14_get_in_range.

(* every history of SEEK / PUTRECORD / GETRECORD on a handle produces the outputs and the final
   sequence of the list-and-cursor specification (induction over the operation list) *)
Theorem C14_history : forall ops f outs0, handle_ok f ->
  let '(f', outs) := fold_left (fun acc o => let '(f0, outs) := acc in let '(f1, r) := impl_step f0 o in (f1, outs ++ [r])) ops (f, outs0) in
  let '(sp', outs') := fold_left (fun acc o => let '(s0, outs) := acc in let '(s1, r) := spec_step s0 o in (s1, outs ++ [r])) ops (abs_rf f, outs0) in
  abs_rf f' = sp' /\ outs = outs' /\ handle_ok f'.
Proof. exact history_refines. Qed.
Print Assumptions C14_history.

(* CLOSEFILE writes the records, OPENFILE reads them: the same sequence, whatever the records contain *)
Theorem C14_sequence_survives_close_and_open : forall rs,
  Forall (fun r => line_safe r = true /\ r <> [] /\ starts_hash r = false) rs -> load_records (store_records rs) = rs.
Proof. exact load_store_records. Qed.
Print Assumptions C14_sequence_survives_close_and_open.

(* on the handle table and the disk: closing a modified random file and opening the name again gives a handle on the
   same records, cursor on the first; the disk is what the close wrote *)
Theorem C14_close_then_reopen : forall f s, of_mode f = FRandom -> of_modified f = true -> os_name_ok (of_name f) = true ->
  Forall rec_ok (of_recs f) ->
  exists s1 s2, close_file_effect f s = (Ok Datatypes.tt, s1) /\ s_files s1 = s_files s /\
                create_file (of_name f) FRandom s1 = (Ok true, s2) /\ s_fs s2 = s_fs s1 /\
                s_files s2 = s_files s ++ [mkOfile (of_name f) FRandom [] (of_recs f) 0 false].
Proof. exact close_then_reopen. Qed.
Print Assumptions C14_close_then_reopen.

Example C14_records_with_line_breaks_reopen :
  let rs := [str_of_string "STRING 5 a
##b"; str_of_string "CHAR 
#"; str_of_string "INTEGER 7"] in
  Forall rec_ok rs /\ Z.of_nat (List.length (split_lines (store_records rs))) = 6 /\ load_records (store_records rs) = rs.
Proof. split; [repeat constructor; discriminate|]. split; vm_compute; reflexivity. Qed.

Example C14_fresh_handle_ok : handle_ok (mkOfile (str_of_string "a.dat") FRandom [] [] 0 false) /\
  handle_ok (mkOfile (str_of_string "a.dat") FRandom [] [str_of_string "r1"; str_of_string "r2"] 2 true).
Proof. unfold handle_ok, cursor, nrecs. cbn. lia. Qed.

(* ---- the three statements themselves, in every state (file name a string literal) ---- *)
(* SEEK "f", a : the cursor of that handle moves as rf_seek says (C14_seek_exact); nothing else changes.  a is any expression that
   yields, without touching the state, an INTEGER >= 1 *)
Theorem C14_seek_statement_moves_the_cursor_only : forall ped repl lim fuel t name a c s ar addr fh fh',
  ev_eval (evs_at ped repl lim (S fuel)) a c s = (Ok ar, s) -> dk (r_type ar) = KInt -> r_val ar = Some (PInt addr) -> (1 <= addr)%Z ->
  find_file (tval name) (s_files s) = Some fh -> of_mode fh = FRandom -> rf_seek fh addr = Some fh' ->
  ev_eval (evs_at ped repl lim (S (S fuel))) (NSeek t (NStr name) a) c s = (Ok res_none, set_files (replace_file fh' (s_files s)) s).
Proof. exact seek_moves_the_cursor. Qed.
Print Assumptions C14_seek_statement_moves_the_cursor_only.

(* PUTRECORD "f", v : the handle becomes rf_put fh txt (C14_put_replaces / C14_put_appends), txt the text form of v's value; nothing
   else changes *)
Theorem C14_putrecord_statement_writes_at_the_cursor_only : forall ped repl lim fuel t name id c s fh vid cl tr txt,
  find_file (tval name) (s_files s) = Some fh -> of_mode fh = FRandom ->
  lookup_var c (tval id) true s = (Ok (Some vid), s) -> lookup_arr c (tval id) true s = (Ok None, s) ->
  nm_get vid (s_cells s) = Some cl -> dk (c_type cl) <> KPtr -> abs_val hfuel c (c_val cl) s = (Ok tr, s) -> dump tr = Some txt ->
  ev_eval (evs_at ped repl lim (S (S fuel))) (NPutRecord t (NStr name) id) c s = (Ok res_none, set_files (replace_file (rf_put fh txt) (s_files s)) s).
Proof. exact putrecord_writes_the_value_at_the_cursor. Qed.
Print Assumptions C14_putrecord_statement_writes_at_the_cursor_only.

(* GETRECORD "f", v : the record under the cursor (rf_get) is loaded into v's value in place; the handle is left as it was *)
Theorem C14_getrecord_statement_loads_the_record_under_the_cursor : forall ped repl lim fuel t name id c s fh vid cl rec old new rest s',
  find_file (tval name) (s_files s) = Some fh -> of_mode fh = FRandom ->
  lookup_var c (tval id) true s = (Ok (Some vid), s) -> lookup_arr c (tval id) true s = (Ok None, s) ->
  nm_get vid (s_cells s) = Some cl -> dk (c_type cl) <> KPtr -> c_const cl = false -> rf_get fh = Some rec ->
  abs_val hfuel c (c_val cl) s = (Ok old, s) -> load old rec = (new, rest, true) -> store_tree hfuel vid new s = (Ok Datatypes.tt, s') ->
  ev_eval (evs_at ped repl lim (S (S fuel))) (NGetRecord t (NStr name) id) c s = (Ok res_none, s').
Proof. exact getrecord_loads_the_record_at_the_cursor. Qed.
Print Assumptions C14_getrecord_statement_loads_the_record_under_the_cursor.
