(* Lemmas_EnumStates.v -- enumerated arithmetic as the evaluator performs it, in every state: for a value of type T with n names at
   position i and an INTEGER k, `e + k` / `k + e` / `e - k` yield the value of the SAME type T at position (i +/- k) mod n
   (enum_arith, C19_add_cyclic), and nothing in the state changes. *)
From PE2 Require Import Eval Enums Lemmas_Store.
Local Open Scope Z_scope.

(* An enumerated value e and an INTEGER n, in either order ([swap]: the integer stands on the left; the evaluator then exchanges
   the operands and remembers that it did): only the kinds of the operands decide that this branch is taken. *)
Lemma enum_with_integer t c e n (swap : bool) tn i k vals s :
  dk (r_type e) = KEnum -> r_val e = Some (PEnum tn i) -> dk (r_type n) = KInt -> r_val n = Some (PInt k) ->
  (tt t = TPLUS \/ tt t = TMINUS) -> lookup_enum_def c tn true s = (Ok (Some vals), s) -> vals <> [] ->
  eval_arith t c (if swap then n else e) (if swap then e else n) s =
    (Ok (mkRes (mkDT KEnum (Some tn)) (Some (PEnum tn (let '(a, b) := if swap then (k, i) else (i, k) in
                                                        enum_arith (tt_eqb (tt t) TPLUS) a b (Z.of_nat (List.length vals)))))), s).
Proof.
  intros Ke Ve Kn Vn Ht Hd Hv. destruct vals as [|v vals]; [contradiction|].
  assert (Hop : tt_eqb (tt t) TPLUS || tt_eqb (tt t) TMINUS = true) by (destruct Ht as [-> | ->]; reflexivity).
  assert (Ke' : dt_is (r_type e) KInt = false) by (apply dt_is_false; congruence).
  apply dt_is_true in Ke, Kn.
  assert (Esw : dt_is (r_type (if swap then n else e)) KInt && dt_is (r_type (if swap then e else n)) KEnum = swap)
    by (destruct swap; [rewrite Kn, Ke|rewrite Ke']; reflexivity).
  unfold eval_arith. cbv zeta. rewrite if_true; rewrite Esw.
  - destruct swap; unfold as_payload, as_int; rewrite Ve, Vn, !bind_ret, (bind_ok Hd); reflexivity.
  - destruct swap; rewrite Ke, Kn, Hop; reflexivity.
Qed.

Theorem enum_plus_or_minus_integer t c s tn i k vals :
  (tt t = TPLUS \/ tt t = TMINUS) -> lookup_enum_def c tn true s = (Ok (Some vals), s) -> vals <> [] ->
  eval_arith t c (mkRes (mkDT KEnum (Some tn)) (Some (PEnum tn i))) (res_of KInt (PInt k)) s =
    (Ok (mkRes (mkDT KEnum (Some tn)) (Some (PEnum tn (enum_arith (tt_eqb (tt t) TPLUS) i k (Z.of_nat (List.length vals)))))), s).
Proof. intros Ht Hd Hv. apply (enum_with_integer t c _ _ false); auto. Qed.

Theorem integer_plus_enum t c s tn i k vals :
  tt t = TPLUS -> lookup_enum_def c tn true s = (Ok (Some vals), s) -> vals <> [] ->
  eval_arith t c (res_of KInt (PInt k)) (mkRes (mkDT KEnum (Some tn)) (Some (PEnum tn i))) s =
    (Ok (mkRes (mkDT KEnum (Some tn)) (Some (PEnum tn (enum_arith true k i (Z.of_nat (List.length vals)))))), s).
Proof.
  intros Ht Hd Hv. replace true with (tt_eqb (tt t) TPLUS) by now rewrite Ht.
  apply (enum_with_integer t c _ _ true); auto.
Qed.
