(* Lemmas_Expr.v — what eval_arith computes (C02: exact INTEGER + - *, DIV/MOD, / and promotion to REAL, zero divisors and
   operands it does not accept) and the operator-precedence ladder of the parser (a sweep over all operator pairs; unary binding). *)
From PE2 Require Import Parser Eval Lemmas_Copy.
From Coq Require Import ZifyBool.
Local Open Scope Z_scope.

Lemma arith_plus a b : arith_int TPLUS a b = wrap64 (a + b).  Proof. reflexivity. Qed.
Lemma arith_minus a b : arith_int TMINUS a b = wrap64 (a - b). Proof. reflexivity. Qed.
Lemma arith_star a b : arith_int TSTAR a b = wrap64 (a * b).  Proof. reflexivity. Qed.

Definition exact_result (op : ttype) (a b : Z) : Z :=
  match op with TPLUS => a + b | TMINUS => a - b | _ => a * b end.
Lemma arith_exact_in_range op a b :
  (op = TPLUS \/ op = TMINUS \/ op = TSTAR) ->
  int64_min <= exact_result op a b <= int64_max -> arith_int op a b = exact_result op a b.
Proof. intros [H|[H|H]] Hr; subst op; cbn [arith_int exact_result] in *; apply wrap64_id; exact Hr. Qed.

Lemma divmod_law a b :
  b <> 0 -> ~ (a = int64_min /\ b = -1) -> int64_min <= a <= int64_max ->
  a = arith_int TDIV a b * b + arith_int TMOD a b /\ Z.abs (arith_int TMOD a b) < Z.abs b.
Proof.
  intros Hb Hmin Ha. cbn [arith_int]. destruct (b =? -1) eqn:E.
  - apply Z.eqb_eq in E. subst b. rewrite wrap64_id; [lia|]. unfold int64_min, int64_max, two63 in *. lia.
  - pose proof (Z.quot_rem' a b). pose proof (Z.rem_bound_abs a b Hb). split; lia.
Qed.

(* the DIV/MOD results themselves are 64-bit integers *)
Lemma div_in_range a b : b <> 0 -> int64_min <= a <= int64_max -> int64_min <= arith_int TDIV a b <= int64_max.
Proof.
  intros Hb Ha. cbn [arith_int]. destruct (b =? -1) eqn:E; [apply wrap64_in_range|].
  apply Z.eqb_neq in E.
  destruct (Z.eq_dec b 1) as [->|Hb1]; [rewrite Z.quot_1_r; exact Ha|].
  assert (H2 : 2 <= Z.abs b) by lia.
  assert (Hq : 2 * Z.abs (Z.quot a b) <= Z.abs a).
  { rewrite <- Z.quot_abs by lia. rewrite Z.quot_div_nonneg by lia.
    pose proof (Z.div_mod (Z.abs a) (Z.abs b) ltac:(lia)) as D.
    pose proof (Z.mod_pos_bound (Z.abs a) (Z.abs b) ltac:(lia)) as M.
    assert (0 <= Z.abs a / Z.abs b) by (apply Z.div_pos; lia). nia. }
  unfold int64_min, int64_max, two63 in *. lia.
Qed.

(* ---------------- precedence ladder: every ordered pair of binary operators ---------------- *)
Definition binops : list ttype :=
  [TSTAR; TSLASH; TDIV; TMOD; TPLUS; TMINUS; TAMPERSAND; TEQUALS; TNOT_EQUALS; TGREATER; TLESSER; TGREATER_EQUAL; TLESSER_EQUAL; TAND; TOR].

Definition level (t : ttype) : Z :=
  match t with
  | TSTAR | TSLASH | TDIV | TMOD => 5
  | TPLUS | TMINUS => 4
  | TAMPERSAND => 3
  | TEQUALS | TNOT_EQUALS | TGREATER | TLESSER | TGREATER_EQUAL | TLESSER_EQUAL => 2
  | TAND | TOR => 1
  | _ => 0
  end.

(* operator shape of a parsed expression, forgetting which node class carries it *)
Inductive shape := Leaf (v : str) | Bin (op : ttype) (l r : shape) | Other.
Fixpoint shape_of (n : node) : shape :=
  match n with
  | NInt t => Leaf (tval t)
  | NArith t l r | NCmp t l r | NLogic t l r | NCat t l r => Bin (tt t) (shape_of l) (shape_of r)
  | _ => Other
  end.

Definition tk (t : ttype) (v : string) : token := mkTok t 1 1 (str_of_string v).
Definition pair_tokens (o1 o2 : ttype) : list token :=
  [tk TINTEGER "1"; tk o1 ""; tk TINTEGER "2"; tk o2 ""; tk TINTEGER "3"; tk TEXPRESSION_END ""].

Definition expected (o1 o2 : ttype) : shape :=
  let a := Leaf (str_of_string "1") in let b := Leaf (str_of_string "2") in let c := Leaf (str_of_string "3") in
  if level o2 <=? level o1 then Bin o2 (Bin o1 a b) c else Bin o1 a (Bin o2 b c).

(* fuel: the ladder from parse_eval down to an atom has eight rungs, each one level down, and the loops draw on the same number;
   9 is the least with which the sweep below passes, any larger number does *)
Definition parse_pair (ped : bool) (o1 o2 : ttype) : option shape :=
  match parse_eval ped 200 (mkPst (pair_tokens o1 o2) []) with
  | POk n s => if is_t s TEXPRESSION_END then Some (shape_of n) else None
  | _ => None
  end.

Fixpoint shape_eqb (a b : shape) : bool :=
  match a, b with
  | Leaf x, Leaf y => str_eqb x y
  | Bin o l r, Bin o' l' r' => tt_eqb o o' && shape_eqb l l' && shape_eqb r r'
  | Other, Other => true
  | _, _ => false
  end.

Lemma shape_eqb_eq a b : shape_eqb a b = true -> a = b.
Proof.
  revert b; induction a as [x|o l IHl r IHr|]; intros [y|o' l' r'|]; cbn [shape_eqb]; try discriminate; auto.
  - intros H. apply str_eqb_eq in H. congruence.
  - rewrite !andb_true_iff. intros [[H1 H2] H3]. apply tt_eqb_eq in H1. apply IHl in H2. apply IHr in H3. congruence.
Qed.

Lemma precedence_sweep :
  forallb (fun o1 => forallb (fun o2 => forallb (fun ped =>
     match parse_pair ped o1 o2 with Some s => shape_eqb s (expected o1 o2) | None => false end) [false; true]) binops) binops = true.
Proof. vm_compute. reflexivity. Qed.

Lemma precedence_pairs o1 o2 ped : In o1 binops -> In o2 binops -> parse_pair ped o1 o2 = Some (expected o1 o2).
Proof.
  intros H1 H2. pose proof precedence_sweep as S. rewrite forallb_forall in S. specialize (S o1 H1).
  rewrite forallb_forall in S. specialize (S o2 H2). rewrite forallb_forall in S.
  assert (Hp : In ped [false; true]) by (destruct ped; cbn; auto).
  specialize (S ped Hp). destruct (parse_pair ped o1 o2) as [s|]; [|discriminate]. apply shape_eqb_eq in S. congruence.
Qed.

(* unary minus binds to the atom; NOT binds looser than comparison, tighter than AND/OR *)
Definition unary_tokens1 := [tk TMINUS ""; tk TINTEGER "1"; tk TSTAR ""; tk TINTEGER "2"; tk TEXPRESSION_END ""].
Definition unary_tokens2 := [tk TNOT ""; tk TINTEGER "1"; tk TEQUALS ""; tk TINTEGER "2"; tk TAND ""; tk TINTEGER "3"; tk TEXPRESSION_END ""].
Lemma unary_binding :
  (match parse_eval false 200 (mkPst unary_tokens1 []) with POk (NArith _ (NNeg _ (NInt _)) (NInt _)) _ => true | _ => false end) = true /\
  (match parse_eval false 200 (mkPst unary_tokens2 []) with POk (NLogic _ (NNot _ (NCmp _ (NInt _) (NInt _))) (NInt _)) _ => true | _ => false end) = true.
Proof. vm_compute. split; reflexivity. Qed.

Definition rint (z : Z) : result := res_of KInt (PInt z).
Definition rreal (x : real) : result := res_of KReal (PReal x).

Lemma int_ops_exact t c s a b :
  (tt t = TPLUS \/ tt t = TMINUS \/ tt t = TSTAR) ->
  eval_arith t c (rint a) (rint b) s = (Ok (rint (arith_int (tt t) a b)), s).
Proof. destruct t as [ty ln cl v]. cbn [tt]. intros [-> | [-> | ->]]; reflexivity. Qed.

Lemma int_divmod t c s a b :
  (tt t = TDIV \/ tt t = TMOD) -> b <> 0 ->
  eval_arith t c (rint a) (rint b) s = (Ok (rint (arith_int (tt t) a b)), s).
Proof.
  destruct t as [ty ln cl v]. cbn [tt]. intros H Hb. apply Z.eqb_neq in Hb.
  destruct H as [-> | ->]; cbn; rewrite Hb; reflexivity.
Qed.

Lemma slash_is_real t c s a b :
  tt t = TSLASH -> b <> 0 ->
  eval_arith t c (rint a) (rint b) s = (Ok (rreal (rdiv (real_of_z a) (real_of_z b))), s).
Proof. destruct t as [ty ln cl v]. cbn [tt]. intros -> Hb. apply Z.eqb_neq in Hb. cbn. rewrite Hb. reflexivity. Qed.

Lemma mixed_promotes_to_real t c s a x :
  (tt t = TPLUS \/ tt t = TMINUS \/ tt t = TSTAR) ->
  exists y, eval_arith t c (rint a) (rreal x) s = (Ok (rreal y), s) /\ eval_arith t c (rreal x) (rint a) s = (Ok (rreal (match tt t with TPLUS => radd x (real_of_z a) | TMINUS => rsub x (real_of_z a) | _ => rmul x (real_of_z a) end)), s).
Proof. destruct t as [ty ln cl v]. cbn [tt]. intros [-> | [-> | ->]]; eexists; split; reflexivity. Qed.

Lemma div_of_reals_is_integer t c s x y :
  tt t = TDIV -> is_rzero y = false ->
  eval_arith t c (rreal x) (rreal y) s = (Ok (rint (real_to_int64 (rfloor (rdiv x y)))), s).
Proof. destruct t as [ty ln cl v]. cbn [tt]. intros -> Hy. cbn. rewrite Hy. reflexivity. Qed.

Definition yields_value {A} (o : outcome A * st) : Prop := match o with (Ok _, _) => True | _ => False end.

Lemma runtime_error_no_value {A} cls tk cx s0 : ~ yields_value (@runtime_error_cls A cls tk cx s0).
Proof. destruct (@runtime_error_fails A cls tk cx s0) as [f [E _]]. rewrite E. exact id. Qed.

Lemma zero_divisor_int t c s a :
  (tt t = TSLASH \/ tt t = TDIV \/ tt t = TMOD) -> ~ yields_value (eval_arith t c (rint a) (rint 0) s).
Proof. destruct t as [ty ln cl v]. cbn [tt]. intros [-> | [-> | ->]]; apply runtime_error_no_value. Qed.

Lemma zero_divisor_real t c s x y :
  (tt t = TSLASH \/ tt t = TDIV \/ tt t = TMOD) -> is_rzero y = true -> ~ yields_value (eval_arith t c (rreal x) (rreal y) s).
Proof.
  destruct t as [ty ln cl v]. cbn [tt]. intros H Hy.
  destruct H as [-> | [-> | ->]]; cbn; rewrite Hy; apply runtime_error_no_value.
Qed.

Lemma if_second {A} (g1 g2 : bool) (a e b : A) : g1 = false -> g2 = true -> (if g1 then a else if g2 then e else b) = e.
Proof. intros -> ->. reflexivity. Qed.

(* operands that are neither numeric nor the enum +/- INTEGER form never produce a value *)
Lemma operand_rejection t c s (l r : result) :
  (is_numeric (r_type l) && is_numeric (r_type r)) = false ->
  dt_is (r_type l) KEnum = false -> dt_is (r_type r) KEnum = false ->
  ~ yields_value (eval_arith t c l r s).
Proof.
  (* only the two guards in front of the error branch are rewritten; the other branches (large) are never traversed *)
  intros Hn Hl Hr. unfold eval_arith. cbv zeta.
  rewrite if_second; [apply runtime_error_no_value| |]; rewrite Hr, andb_false_r.
  - rewrite Hl. reflexivity.
  - destruct (is_numeric (r_type l)), (is_numeric (r_type r)); (discriminate Hn || reflexivity).
Qed.
