(* Properties_C18.v — DATE values are real calendar dates in chronological order. *)
From PE2 Require Import Dates Lemmas_Dates.
Local Open Scope Z_scope.

(* SETDATE(d, m, y) yields a date exactly for valid Gregorian triples, with those components *)
Theorem C18_setdate_iff_valid : forall d m y, setdate d m y = Some (d, m, y) <-> valid_gregorian d m y = true.
Proof. exact setdate_iff. Qed.
Print Assumptions C18_setdate_iff_valid.

Theorem C18_setdate_invalid_rejected : forall d m y, valid_gregorian d m y = false -> setdate d m y = None.
Proof. exact setdate_none. Qed.
Print Assumptions C18_setdate_invalid_rejected.

(* a literal d/m/y: whatever survives the range guard and ok() is the triple that was written *)
Theorem C18_literal_components : forall d m y, 0 <= d -> 0 <= m -> 0 <= y ->
  let '(d', m', y') := date_literal_components d m y in
  ymd_ok d' m' y' = true -> (d', m', y') = (d, m, y) /\ valid_gregorian d m y = true.
Proof. intros d m y _ _ _. apply literal_components. Qed.
Print Assumptions C18_literal_components.

Theorem C18_literal_valid_kept : forall d m y, valid_gregorian d m y = true -> date_literal_components d m y = (d, m, y).
Proof. exact literal_valid. Qed.
Print Assumptions C18_literal_valid_kept.

(* the comparison key orders valid dates chronologically and separates distinct dates *)
Theorem C18_key_monotone : forall d1 m1 y1 d2 m2 y2,
  ymd_ok d1 m1 y1 = true -> ymd_ok d2 m2 y2 = true ->
  (date_key d1 m1 y1 < date_key d2 m2 y2 <-> lex_lt d1 m1 y1 d2 m2 y2).
Proof. exact key_monotone. Qed.
Print Assumptions C18_key_monotone.

Theorem C18_key_injective : forall d1 m1 y1 d2 m2 y2,
  ymd_ok d1 m1 y1 = true -> ymd_ok d2 m2 y2 = true ->
  (date_key d1 m1 y1 = date_key d2 m2 y2 <-> (d1 = d2 /\ m1 = m2 /\ y1 = y2)).
Proof. exact key_injective. Qed.
Print Assumptions C18_key_injective.

(* DAYINDEX advances by one (cyclically, Sunday = 1 .. Saturday = 7) from each valid date to the next,
   and is anchored on known days: this pins it to the true day of the week for every date *)
Theorem C18_weekday_step : forall d m y, ymd_ok d m y = true ->
  let '(d', m', y') := next_day d m y in day_index d' m' y' = day_index d m y mod 7 + 1.
Proof. exact day_index_step. Qed.
Print Assumptions C18_weekday_step.

Theorem C18_weekday_range : forall d m y, 1 <= day_index d m y <= 7.
Proof. exact day_index_range. Qed.
Print Assumptions C18_weekday_range.

Theorem C18_weekday_anchor : day_index 1 1 2000 = 7 /\ day_index 29 9 2026 = 3.
Proof. exact day_index_anchor. Qed.
Print Assumptions C18_weekday_anchor.

Example C18_leap_examples :
  valid_gregorian 29 2 2024 = true /\ valid_gregorian 29 2 1900 = false /\ valid_gregorian 29 2 2000 = true /\
  valid_gregorian 31 4 2021 = false /\ setdate 257 1 2020 = None.
Proof. vm_compute. repeat split; reflexivity. Qed.
