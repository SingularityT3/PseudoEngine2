(* Lemmas_Calls.v — parameter lists: passing modes are sticky, types are shared by groups. *)
From PE2 Require Import Parser Lemmas_ParserCong Lemmas_PedParser.
Local Open Scope Z_scope.

Inductive pmode := MNone | MRef | MVal.
(* one written parameter: an optional mode keyword, and whether its own `: type` follows (false = `name,`) *)
Definition pspec := (pmode * bool)%type.

Definition tkn (t : ttype) (v : string) : token := mkTok t 1 1 (str_of_string v).
Definition ident_n (p : string) (i : nat) : str := str_of_string p ++ nat_digits (Z.of_nat i).

Fixpoint param_tokens_aux (ps : list pspec) (i : nat) : list token :=
  match ps with
  | [] => []
  | (m, typed) :: r =>
    (match i with O => [] | _ => [tkn TCOMMA ""] end) ++
    (match m with MNone => [] | MRef => [tkn TBYREF ""] | MVal => [tkn TBYVAL ""] end) ++
    [mkTok TIDENTIFIER 1 1 (ident_n "p" i)] ++
    (if typed then [tkn TCOLON ""; mkTok TIDENTIFIER 1 1 (ident_n "T" i)] else []) ++
    param_tokens_aux r (S i)
  end.
Definition param_tokens (ps : list pspec) : list token :=
  tkn TLPAREN "" :: param_tokens_aux ps 0 ++ [tkn TRPAREN ""; tkn TEXPRESSION_END ""].

(* the documented meaning: a mode written on one parameter carries over until changed (initially BYVAL);
   a parameter without its own type takes the type of the next parameter that has one *)
Fixpoint carry (cur : bool) (ps : list pspec) : list bool :=
  match ps with
  | [] => []
  | (m, _) :: r => let c := match m with MNone => cur | MRef => true | MVal => false end in c :: carry c r
  end.
Fixpoint group_types (ps : list pspec) (i : nat) : list (option nat) :=
  match ps with
  | [] => []
  | (_, typed) :: r =>
    let rest := group_types r (S i) in
    (if typed then Some i else match rest with t :: _ => t | [] => None end) :: rest
  end.

Definition well_formed_list (ps : list pspec) : bool :=
  match rev ps with (_, true) :: _ => true | [] => true | _ => false end.

Definition check_params (ped : bool) (ps : list pspec) : bool :=
  match parse_paramlist ped 400 (mkPst (param_tokens ps) []) with
  | POk l _ =>
    let names := map (fun x => fst (fst x)) l in
    let types := map (fun x => tval (snd (fst x))) l in
    let modes := map snd l in
    (Nat.eqb (List.length l) (List.length ps)) &&
    (forallb (fun p => str_eqb (fst p) (snd p)) (combine names (map (ident_n "p") (seq 0 (List.length ps))))) &&
    (forallb (fun p => Bool.eqb (fst p) (snd p)) (combine modes (carry false ps))) &&
    (forallb (fun p => match snd p with Some i => str_eqb (fst p) (ident_n "T" i) | None => false end) (combine types (group_types ps 0)))
  | _ => false
  end.

Definition all_pspec : list pspec := [(MNone, true); (MRef, true); (MVal, true); (MNone, false); (MRef, false); (MVal, false)].
Fixpoint lists_upto (n : nat) : list (list pspec) :=
  match n with
  | O => [[]]
  | S k => let prev := lists_upto k in prev ++ flat_map (fun l => map (fun x => x :: l) all_pspec) (filter (fun l => Nat.eqb (List.length l) k) prev)
  end.

(* the enumeration misses no list: `sticky_modes` below speaks of every parameter list of at most 4 parameters *)
Lemma all_pspec_complete (x : pspec) : In x all_pspec.
Proof. destruct x as [[] []]; cbn; tauto. Qed.

Lemma lists_upto_complete n : forall l, (List.length l <= n)%nat -> In l (lists_upto n).
Proof.
  induction n as [|n IH]; intros l H.
  - destruct l; [left; reflexivity|cbn in H; lia].
  - cbn [lists_upto]. apply in_or_app.
    destruct (Nat.eq_dec (List.length l) (S n)) as [E|E]; [right|left; apply IH; lia].
    destruct l as [|x l]; [discriminate|]. injection E as E.
    apply in_flat_map. exists l. split.
    + apply filter_In. split; [apply IH; lia|apply Nat.eqb_eq; exact E].
    + apply (in_map (fun y => y :: l)), all_pspec_complete.
Qed.

Lemma sticky_sweep :
  forallb (fun ps => if well_formed_list ps then check_params true ps else true) (lists_upto 4) = true.
Proof.
  (* named, the parser at fuel 400 is built once by the evaluation, not once per list *)
  unfold check_params, parse_paramlist. set (p := prs_at true 400). vm_compute. reflexivity.
Qed.

(* without --pedantic the parser returns what it returns with it, unless that is a rejection: the sweep need not be run twice *)
Lemma check_params_ped ps : check_params true ps = true -> check_params false ps = true.
Proof.
  unfold check_params, parse_paramlist.
  destruct (c_parse_paramlist _ _ _ _ (prs_at_rel 400) (mkPst (param_tokens ps) [])) as [E|[t [s E]]]; rewrite E; [exact id|discriminate].
Qed.

Lemma sticky_modes ps ped : In ps (lists_upto 4) -> well_formed_list ps = true -> check_params ped ps = true.
Proof.
  intros Hin Hwf. pose proof (proj1 (forallb_forall _ _) sticky_sweep ps Hin) as S. cbv beta in S. rewrite Hwf in S.
  destruct ped; [exact S|exact (check_params_ped ps S)].
Qed.
