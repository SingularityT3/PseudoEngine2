(* Lemmas_ConstEval.v -- the program logic of Lemmas_ConstLogic.v carried through the evaluator: the combinators of Control.v,
   what is assumed of the evaluation functions one fuel level down (evs_ok), the tactic that executes a body symbolically,
   and the bodies of the nine functions beside eval_body (which is Lemmas_ConstExpr.v). *)
From PE2 Require Import Eval Lemmas_DeepCopy Lemmas_Frame Lemmas_ConstLogic.
Local Open Scope N_scope.

Definition newvar_post (name : str) (ty : dtype) (cst : bool) (owner : N) (id : N) (s : st) : Prop :=
  exists p, cellmeta id (mkCell name ty cst owner p) s /\ (named_kind (dk ty) = true -> dname ty <> None).
Lemma stable_newvar_post name ty cst owner id : stable (newvar_post name ty cst owner id).
Proof. intros s s' H [p [X Y]]. exists p. split; [eapply stable_cellmeta; eauto|exact Y]. Qed.
Lemma default_prim_named ty p : default_prim ty = Some p -> named_kind (dk ty) = true -> dname ty <> None.
Proof. destruct ty as [k n]. destruct k, n; cbn; intros H Hk; try discriminate H; try discriminate Hk; discriminate. Qed.

Global Hint Resolve stable_newvar_post : stab.

Lemma hn_lookup_def {D} (table : ctx -> list (str * D)) c name global : hn (lookup_def table c name global).
Proof. unfold lookup_def. hnt. Qed.
Lemma hn_root_of id : hn (root_of id).
Proof. unfold root_of. hnt. Qed.
Lemma hn_nonrec_ancestor id : hn (nonrec_ancestor id).
Proof. unfold nonrec_ancestor. hnt. Qed.
Lemma hn_on_chain id target : hn (on_chain id target).
Proof. unfold on_chain. hnt. Qed.
Global Hint Resolve hn_lookup_def hn_root_of hn_nonrec_ancestor hn_on_chain : hn.
Lemma hn_lookup_var c name global : hn (lookup_var c name global).
Proof. unfold lookup_var. hnt. Qed.
Lemma hn_lookup_arr c name global : hn (lookup_arr c name global).
Proof. unfold lookup_arr. hnt. Qed.
Lemma hn_get_type c t global : hn (get_type c t global).
Proof. unfold get_type. hnt. Qed.
Lemma hn_is_identifier_type c t global : hn (is_identifier_type c t global).
Proof. unfold is_identifier_type. hnt. Qed.
Lemma hn_tick lim t c : hn (tick lim t c).
Proof. unfold tick, budget_error. hnt. Qed.
Lemma hn_expect_holder_var t c h : hn (expect_holder_var t c h).
Proof. unfold expect_holder_var. hnt. Qed.
Lemma hn_prim_to_string p : hn (prim_to_string p).
Proof. unfold prim_to_string. hnt. Qed.
Global Hint Resolve hn_lookup_var hn_lookup_arr hn_get_type hn_is_identifier_type hn_tick hn_expect_holder_var hn_prim_to_string : hn.

Definition trT {A} (m : M A) : Prop := forall (P : st -> Prop), stable P -> tr P m (fun _ _ => True).
Definition trR (m : M result) : Prop := forall (P : st -> Prop), stable P -> tr P m (fun r s => resok r s).
Lemma trR_trT m : trR m -> trT m.
Proof. intros H P SP. eapply tr_true. apply H. exact SP. Qed.

Lemma trT_run_body br : trT br -> trT (run_body br).
Proof.
  intros H P SP. unfold run_body. apply tr_catch; [exact SP| |].
  - eapply tr_bind; [exact SP|apply H; exact SP|]. intros u. eapply tr_true. apply tr_ret.
  - intros f m' E. destruct f; inversion E; subst; eapply tr_true; apply tr_ret.
Qed.
Lemma trT_cond_bool t c ce : trT ce -> trT (cond_bool t c ce).
Proof.
  intros H P SP. unfold cond_bool. eapply tr_bind; [exact SP|apply H; exact SP|]. intros cr.
  destruct (negb _); [apply tr_rt_error|]. apply tr_hn_true. unfold as_bool. hnt.
Qed.
Lemma trR_if_chain t c comps : Forall (fun p => (forall ce, fst p = Some ce -> trT ce) /\ trT (snd p)) comps -> trR (if_chain t c comps).
Proof.
  induction comps as [|[o b] rest IH]; intros HF P SP; cbn [if_chain]; [apply tr_ret_none|].
  inversion HF as [|? ? [Hc Hb] Hr]; subst. cbn [fst snd] in *. destruct o as [ce|].
  - eapply tr_bind; [exact SP|apply trT_cond_bool; [apply Hc; reflexivity|exact SP]|]. intros v. destruct v.
    + eapply tr_bind; [stab|apply Hb; stab|]. intros u. apply tr_ret_none.
    + apply IH; [exact Hr|stab].
  - eapply tr_bind; [exact SP|apply Hb; exact SP|]. intros u. apply tr_ret_none.
Qed.
Lemma trR_case_chain clauses : Forall (fun p => trT (fst p) /\ trT (snd p)) clauses -> trR (case_chain clauses).
Proof.
  induction clauses as [|[m b] rest IH]; intros HF P SP; cbn [case_chain]; [apply tr_ret_none|].
  inversion HF as [|? ? [Hm Hb] Hr]; subst. cbn [fst snd] in *.
  eapply tr_bind; [exact SP|apply Hm; exact SP|]. intros v. destruct v.
  - eapply tr_bind; [stab|apply Hb; stab|]. intros u. apply tr_ret_none.
  - apply IH; [exact Hr|stab].
Qed.
Lemma trR_while lim k t c ce br : trT ce -> trT br -> trR (while_loop lim k t c ce br).
Proof.
  intros Hc Hb. induction k as [|k IH]; intros P SP; cbn [while_loop]; [(apply tr_failm; okf)|].
  eapply tr_bind; [exact SP|apply tr_hn; [exact SP|apply hn_tick]|]. intros u.
  eapply tr_bind; [stab|apply trT_cond_bool; [exact Hc|stab]|]. intros v. destruct (negb v); [apply tr_ret_none|].
  eapply tr_bind; [stab|apply trT_run_body; [exact Hb|stab]|]. intros g. destruct g; [apply IH; stab|apply tr_ret_none].
Qed.
Lemma trR_repeat lim k t c ce br : trT ce -> trT br -> trR (repeat_loop lim k t c ce br).
Proof.
  intros Hc Hb. induction k as [|k IH]; intros P SP; cbn [repeat_loop]; [(apply tr_failm; okf)|].
  eapply tr_bind; [exact SP|apply tr_hn; [exact SP|apply hn_tick]|]. intros u.
  eapply tr_bind; [stab|apply trT_run_body; [exact Hb|stab]|]. intros g. destruct (negb g); [apply tr_ret_none|].
  eapply tr_bind; [stab|apply trT_cond_bool; [exact Hc|stab]|]. intros v. destruct v; [apply tr_ret_none|apply IH; stab].
Qed.
Lemma fits_int_payload it cl s : fits it (PInt 0) s -> cellmeta it cl s -> payload_kind (c_val cl) = dk (c_type cl) -> payload_kind (c_val cl) = KInt.
Proof.
  intros [c0 [E0 [Hk _]]] [c' [E' [_ [M2 _]]]] H. assert (c' = c0) by congruence. subst c'. cbn in Hk. congruence.
Qed.
(* the branch "the counter's cell holds something that is not an INTEGER" cannot be taken: the counter was found to be of type INTEGER *)
Ltac for_contra HW it Ecv :=
  apply tr_false; let s0 := fresh "s0" in let H0 := fresh "H0" in intros s0 H0; decompose [and] H0;
  match goal with Hp : _ s0, Hm : cellmeta it ?cl s0, Hk : payload_kind (c_val ?cl) = dk (c_type ?cl) |- _ =>
    let X := fresh in pose proof (fits_int_payload it cl s0 (proj2 (HW s0 Hp)) Hm Hk) as X; try rewrite Ecv in X; discriminate X end.
(* FOR: the iterator was found writable and of type INTEGER before the loop ([fits it (PInt 0)]: an INTEGER fits its cell); that
   stays true while the body runs *)
Lemma tr_for_res lim k t c it stepv stop br : trT br -> forall (P : st -> Prop), stable P -> (forall s, P s -> wr it s /\ fits it (PInt 0) s) ->
  tr P (for_loop lim k t c it stepv stop br) (fun r s => resok r s).
Proof.
  intros Hb. induction k as [|k IH]; intros P SP HW; cbn [for_loop]; [(apply tr_failm; okf)|].
  eapply tr_bind; [exact SP|apply tr_get_cell|]. intros cl. destruct (c_val cl) eqn:Ecv; try (for_contra HW it Ecv).
  destruct (for_continues stepv z stop); [|apply tr_ret_none].
  eapply tr_bind; [stab|apply tr_hn; [stab|apply hn_tick]|]. intros u.
  eapply tr_bind; [stab|apply trT_run_body; [exact Hb|stab]|]. intros g. destruct (negb g); [apply tr_ret_none|].
  eapply tr_bind; [stab|apply tr_get_cell|]. intros cl'. destruct (c_val cl') eqn:Ecv'; try (for_contra HW it Ecv').
  eapply tr_bind; [stab| |].
  - apply tr_set_cell_val. intros s H. assert (HPs : P s) by tauto. split; [apply (HW s HPs)|]. split; [apply valok_nonrec; intros; discriminate|exact (proj2 (HW s HPs))].
  - intros u2. apply IH; [stab|]. intros s H. apply HW. tauto.
Qed.

Lemma trT_if_chain t c comps : Forall (fun p => (forall ce, fst p = Some ce -> trT ce) /\ trT (snd p)) comps -> trT (if_chain t c comps).
Proof. intros H. apply trR_trT, trR_if_chain, H. Qed.
Lemma trT_case_chain clauses : Forall (fun p => trT (fst p) /\ trT (snd p)) clauses -> trT (case_chain clauses).
Proof. intros H. apply trR_trT, trR_case_chain, H. Qed.
Lemma trT_while lim k t c ce br : trT ce -> trT br -> trT (while_loop lim k t c ce br).
Proof. intros Hc Hb. apply trR_trT, trR_while; assumption. Qed.
Lemma trT_repeat lim k t c ce br : trT ce -> trT br -> trT (repeat_loop lim k t c ce br).
Proof. intros Hc Hb. apply trR_trT, trR_repeat; assumption. Qed.
Lemma tr_for lim k t c it stepv stop br : trT br -> forall (P : st -> Prop), stable P -> (forall s, P s -> wr it s /\ fits it (PInt 0) s) ->
  tr P (for_loop lim k t c it stepv stop br) (fun _ _ => True).
Proof. intros Hb P SP HW. eapply tr_true. apply tr_for_res; assumption. Qed.

(* the bounds are taken two at a time, hence the induction on the length *)
Lemma trT_eval_bounds ev c bs : (forall n, trT (ev n)) -> forall total, trT (eval_bounds ev c bs total).
Proof.
  intros H. remember (List.length bs) as n eqn:Hn. revert bs Hn.
  induction n as [n IH] using lt_wf_ind. intros bs Hn total P SP.
  destruct bs as [|lo [|hi rest]]; cbn [eval_bounds]; try (eapply tr_true; apply tr_ret).
  eapply tr_bind; [exact SP|apply H; exact SP|]. intros lr. destruct (negb _); [apply tr_rt_error|].
  eapply tr_bind; [stab|apply H; stab|]. intros hr. destruct (negb _); [apply tr_rt_error|].
  eapply tr_bind; [stab|apply tr_hn_true; unfold as_int; hnt|]. intros l.
  eapply tr_bind; [stab|apply tr_hn_true; unfold as_int; hnt|]. intros h.
  destruct (h <? l)%Z; [apply tr_rt_error|]. cbv zeta. destruct (_ || _); [apply tr_rt_error|].
  eapply tr_bind; [stab|eapply (IH (List.length rest)); [subst n; cbn [List.length]; lia|reflexivity|stab]|]. intros ds. eapply tr_true. apply tr_ret.
Qed.
Lemma trT_eval_indices ev c es : (forall n, trT (ev n)) -> forall ds, trT (eval_indices ev c es ds).
Proof.
  intros H. induction es as [|e er IH]; intros ds P SP; cbn [eval_indices]; [eapply tr_true; apply tr_ret|].
  destruct ds as [|d dr]; [eapply tr_true; apply tr_ret|].
  eapply tr_bind; [exact SP|apply H; exact SP|]. intros ir. destruct (negb _); [apply tr_rt_error|].
  eapply tr_bind; [stab|apply tr_hn_true; unfold as_int; hnt|]. intros i. destruct (negb _); [apply tr_rt_error|].
  eapply tr_bind; [stab|apply IH; stab|]. intros rest. eapply tr_true. apply tr_ret.
Qed.

(* what is assumed of the ten evaluation functions one fuel level down *)
Record evs_ok (e : evs) : Prop := {
  ok_eval : forall (P : st -> Prop) n c, stable P -> tr P (ev_eval e n c) (fun r s => resok r s);
  ok_resolve : forall (P : st -> Prop) r c, stable P -> tr P (ev_resolve e r c) (fun _ _ => True);
  ok_case_equals : forall (P : st -> Prop) v x c, stable P -> tr P (ev_case_equals e v x c) (fun _ _ => True);
  ok_case_range : forall (P : st -> Prop) v lo hi c, stable P -> tr P (ev_case_range e v lo hi c) (fun _ _ => True);
  ok_run_block : forall (P : st -> Prop) bl c, stable P -> tr P (ev_run_block e bl c) (fun _ _ => True);
  ok_new_var : forall (P : st -> Prop) name ty cst owner, stable P -> tr P (ev_new_var e name ty cst owner) (newvar_post name ty cst owner);
  ok_new_array : forall (P : st -> Prop) name ty dims owner, stable P -> tr P (ev_new_array e name ty dims owner) (fun _ _ => True);
  ok_bind_args : forall (P : st -> Prop) t params args vals c fc, stable P ->
    (forall s, P s -> ctxkind fc false s /\ Forall (fun v => resok v s) vals) -> tr P (ev_bind_args e t params args vals c fc) (fun _ _ => True);
  ok_call_procedure : forall (P : st -> Prop) t name args c, stable P -> tr P (ev_call_procedure e t name args c) (fun r s => resok r s);
  ok_call_function : forall (P : st -> Prop) t args c, stable P -> tr P (ev_call_function e t args c) (fun r s => resok r s) }.

Lemma tr_new_ctx (P : st -> Prop) parent name isfun isrec rett : stable P ->
  tr P (new_ctx parent name isfun isrec rett) (fun id s => ctxkind id isrec s).
Proof.
  intros SP. unfold new_ctx. eapply tr_bind; [exact SP|apply tr_hn; [exact SP|hnt]|]. intros d.
  apply tr_alloc_ctx; [stab|reflexivity|reflexivity|]. intros id. cbn [x_isrec].
  eapply tr_post; [apply tr_ret|]. intros a s [-> [_ Hk]]. exact Hk.
Qed.
Lemma tr_as_payload (P : st -> Prop) r : tr P (as_payload r) (fun p s => r_val r = Some p).
Proof. unfold as_payload. destruct (r_val r) as [p|]; [eapply tr_post; [apply tr_ret|]; intros a s [-> _]; reflexivity|(apply tr_failm; okf)]. Qed.

Lemma newvar_nonconst name ty owner id s : newvar_post name ty false owner id s -> nonconst id s.
Proof. intros [p [H _]]. eapply cellmeta_nonconst; [exact H|reflexivity]. Qed.
Lemma newvar_hastype name ty cst owner id s : newvar_post name ty cst owner id s -> hastype id ty s.
Proof. intros [p [H Hn]]. eapply cellmeta_hastype; [exact H|reflexivity|exact Hn]. Qed.
Lemma newvar_wr name ty owner id s : newvar_post name ty false owner id s -> wr id s.
Proof. intros H. apply nonconst_wr. eapply newvar_nonconst; eauto. Qed.
Lemma not_rec_contra fc s cx : ctxkind fc false s -> nm_get fc (s_ctxs s) = Some cx -> x_isrec cx = true -> False.
Proof. intros [x [E F]] E' F'. congruence. Qed.

Lemma resok_payload r p s : resok r s -> r_val r = Some p -> valok p s.
Proof. intros H E. apply H. exact E. Qed.
Lemma resok_kind r p s : resok r s -> r_val r = Some p -> payload_kind p = dk (r_type r).
Proof. intros H E. apply H. exact E. Qed.
Lemma resok_named r p s : resok r s -> r_val r = Some p -> named_ok p (r_type r).
Proof. intros H E. apply H. exact E. Qed.
Ltac kind_facts :=
  unfold dt_is in *;
  repeat match goal with
         | H : negb _ = false |- _ => apply negb_false_iff in H
         | H : dk_eqb _ _ = true |- _ => apply dk_eqb_eq in H
         end.
(* "the payload is of the kind the type says" and "carries the name the type says": from the result it was taken from,
   from a test on the type made just before, or by computation when payload and type are both explicit *)
Ltac kind_tac := cbn; first [ reflexivity | congruence | (eapply resok_kind; eassumption)
                            | (kind_facts; cbn in *; first [assumption | congruence]) ].
Ltac name_tac := cbn; first [ assumption | (eapply resok_named; eassumption) | (eapply named_ok_pname; [eassumption | eassumption])
                            | (apply named_ok_prim; reflexivity)
                            | (let tn := fresh "tn" in let Hn := fresh "Hn" in intros tn Hn; cbn in *; first [discriminate Hn | (inversion Hn; subst; first [reflexivity | assumption])]) ].
Ltac resok_leaf :=
  let a := fresh "a" in let s := fresh "s" in let HPs := fresh "HPs" in let p := fresh "p" in let E := fresh "E" in
  intros a s [-> HPs] p E; cbn in E;
  first [ (decompose [and] HPs; match goal with H : resok _ _ |- _ => exact (H _ E) end)
        | (inversion E; subst; decompose [and] HPs; split; [ first [ (apply valok_nonrec; intros; discriminate) | eauto ] | split; [ kind_tac | name_tac ] ]) ].

Lemma trT_call_body d cc ab m : trT m -> trT (call_body d cc ab m).
Proof.
  intros H P SP s HI HP. destruct (H P SP s HI HP) as [I1 [K1 O1]]. unfold call_body. destruct (m s) as [[a|f] s1]; cbn [fst snd] in *.
  - split; [eapply Inv_heap_same; [|exact I1]; repeat split|]. split; [eapply K_trans; [exact K1|apply K_heap_same; repeat split]|exact I].
  - assert (HS : heap_same s1 (set_depth d s1)) by (repeat split).
    assert (I2 : Inv (set_depth d s1)) by (eapply Inv_heap_same; eauto).
    assert (K2 : K s (set_depth d s1)) by (eapply K_trans; [exact K1|apply K_heap_same; exact HS]).
    assert (RT : forall t, Inv (snd (@rt_error unit t cc (set_depth d s1))) /\ K s (snd (@rt_error unit t cc (set_depth d s1))) /\
                           match fst (@rt_error unit t cc (set_depth d s1)) with Ok _ => True | Fail f => ok_fail f end).
    { intros t. pose proof (@ro_runtime_error_cls unit EOther t cc (set_depth d s1)) as R. pose proof (proj2 (@hn_runtime_error_cls unit EOther t cc (set_depth d s1))) as N.
      unfold rt_error. rewrite R. split; [exact I2|]. split; [exact K2|]. destruct (fst (runtime_error_cls EOther t cc (set_depth d s1))); [exact I|exact N]. }
    destruct f; try (split; [exact I2|]; split; [exact K2|exact O1]); try apply RT.
    destruct ab; (split; [exact I2|]; split; [exact K2|exact I]).
Qed.

Lemma hn_builtin_args t c ks : forall vs, hn (builtin_args t c ks vs).
Proof.
  induction ks as [|k kr IH]; intros vs; cbn [builtin_args]; [apply hn_ret|]. destruct vs as [|v vr]; [apply hn_ret|].
  unfold implicit_cast, as_int, as_str, as_char, as_payload. hnt.
Qed.
Global Hint Resolve hn_builtin_args : hn.
Lemma tr_mapM_resok self : evs_ok self -> forall (P : st -> Prop) args c, stable P ->
  tr P (mapM (fun a : node => ev_eval self a c) args) (fun vals s => Forall (fun v => resok v s) vals).
Proof.
  intros Hself P args c SP. eapply tr_post; [apply (tr_mapM P _ (fun (_ : node) (v : result) s => resok v s)); [exact SP|intros; apply stable_resok|intros x _; apply (ok_eval self Hself); exact SP]|].
  intros vals s HF. eapply Forall2_Forall_r; [exact HF|]. intros x y H. exact H.
Qed.
Lemma trR_if_chain_map self t c comps : evs_ok self ->
  trR (if_chain t c (map (if_comp (fun x => ev_eval self x c) (fun b => ev_run_block self b c)) comps)).
Proof.
  intros Hself. apply trR_if_chain. apply Forall_forall. intros p Hin. apply in_map_iff in Hin. destruct Hin as [q [Hq _]]. subst p.
  unfold if_comp. cbn [fst snd]. split; [|intros P SP; apply (ok_run_block self Hself); exact SP]. intros ce E. destruct (fst q); inversion E; subst. intros P SP. eapply tr_true. apply (ok_eval self Hself). exact SP.
Qed.
Lemma trR_case_chain_map {A} (f : A -> M bool * M unit) l : (forall x, trT (fst (f x)) /\ trT (snd (f x))) -> trR (case_chain (map f l)).
Proof. intros H. apply trR_case_chain. apply Forall_forall. intros p Hin. apply in_map_iff in Hin. destruct Hin as [q [Hq _]]. subst p. apply H. Qed.

(* symbolic execution of a body: [ht known] chooses the rule by the head of the computation (of the first computation, under a
   bind).  A computation that only reads the heap (no call into the level below, no store) is passed in one step (hnt).  The
   sequencing rule hands the stability of each new precondition to the continuation, so [stab] finds it among the hypotheses.
   [known] is tried first at every step: rules proved later than this tactic.  What is left are the entailments at the stores and
   returns, and the branches the invariant excludes. *)
(* the list is of what writes the heap in Values.v, Heap.v and Eval.v: a writer missing from it only costs a failed attempt *)
Ltac reads_only m :=
  lazymatch goal with Hs : evs_ok ?e |- _ => lazymatch m with context [e] => fail | _ => idtac end | _ => idtac end;
  lazymatch m with
  | context [set_cell_val] => fail | context [assign_val] => fail | context [store_value] => fail | context [store_tree] => fail
  | context [add_var] => fail | context [add_arr] => fail | context [upd_ctx] => fail | context [copy_val] => fail
  | context [copy_array_data] => fail | context [new_ctx] => fail | context [fresh] => fail
  | _ => idtac
  end.
Ltac ht_reads m := reads_only m; apply tr_hn_true; solve [hnt].
Ltac ht_seq rule := eapply tr_bind_s; [stab | rule | intros ?; cbv beta; stab | intros ? ?].
Ltac ht_join := eapply tr_bind_s with (Q := fun _ _ => True); [stab | | intros ?; apply stable_true | intros ? ?].
Ltac ht_reads_then m := reads_only m; ht_join; [apply tr_hn_true; solve [hnt] | ].
(* [idtac] delays the match until the tactic runs: passed as an argument it would be matched against the caller's goal *)
Ltac ht_call lem :=
  idtac; lazymatch goal with
  | Hs : evs_ok ?e |- tr _ _ (fun _ _ => True) => eapply tr_true; apply (lem e Hs); stab
  | Hs : evs_ok ?e |- _ => apply (lem e Hs); stab
  end.
Ltac ht_end m :=
  lazymatch m with
  | failm _ => apply tr_failm; okf
  | crash _ => apply tr_failm; okf
  | unsupported _ => apply tr_failm; okf
  | rt_error _ _ => apply tr_rt_error
  | runtime_error_cls _ _ _ => apply tr_error_cls
  | not_defined_error _ _ => apply tr_error_cls
  | array_direct_error _ _ => apply tr_error_cls
  | ret _ => lazymatch goal with
             | |- tr _ _ (fun _ _ => True) => eapply tr_true; apply tr_ret
             | |- tr _ (ret res_none) _ => apply tr_ret_none
             | |- tr _ _ (fun r s => resok r s) => eapply tr_post; [apply tr_ret | try solve [resok_leaf]]
             end
  | ev_eval _ _ _ => ht_call ok_eval
  | ev_resolve _ _ _ => ht_call ok_resolve
  | ev_case_equals _ _ _ _ => ht_call ok_case_equals
  | ev_case_range _ _ _ _ _ => ht_call ok_case_range
  | ev_run_block _ _ _ => ht_call ok_run_block
  | ev_new_var _ _ _ _ _ => ht_call ok_new_var
  | ev_new_array _ _ _ _ _ => ht_call ok_new_array
  | ev_call_procedure _ _ _ _ _ => ht_call ok_call_procedure
  | ev_call_function _ _ _ _ => ht_call ok_call_function
  | eval_indices _ _ _ _ => apply trT_eval_indices; [intros ? ? ?; ht_call ok_eval | stab]
  | eval_bounds _ _ _ _ => apply trT_eval_bounds; [intros ? ? ?; ht_call ok_eval | stab]
  | while_loop _ _ _ _ _ _ => apply trR_while; [intros ? ?; ht_call ok_eval | intros ? ?; ht_call ok_run_block | stab]
  | repeat_loop _ _ _ _ _ _ => apply trR_repeat; [intros ? ?; ht_call ok_eval | intros ? ?; ht_call ok_run_block | stab]
  | for_loop _ _ _ _ _ _ _ _ => apply tr_for_res; [intros ? ?; ht_call ok_run_block | stab | ]
  | if_chain _ _ (map (if_comp _ _) _) => lazymatch goal with Hs : evs_ok ?e |- _ => apply (trR_if_chain_map e); [exact Hs | stab] end
  | case_chain (map _ _) => apply trR_case_chain_map; [intros ?; split; intros ? ? | stab]
  | assign_val _ _ _ => apply tr_assign_val; [stab | ]
  | set_cell_val _ _ => apply tr_set_cell_val
  | add_var _ _ _ => eapply tr_true; apply tr_add_var; [stab | ]
  | add_arr _ _ _ => unfold add_arr; eapply tr_true; apply tr_upd_ctx_keepvars; [stab | intros ?; repeat split]
  | store_tree _ _ _ => apply tr_store_tree; [stab | ]
  | copy_array_data _ _ _ => apply tr_copy_array_data; [stab | ]
  | upd_ctx _ (ctx_with_retval _) => eapply tr_true; apply tr_set_retval; [stab | ]
  | upd_ctx _ _ => eapply tr_true; apply tr_upd_ctx_keepvars; [stab | intros ?; repeat split]
  | copy_val _ _ => eapply tr_true; apply (proj1 (copy_tr _)); [stab | ]
  | catch_cls _ _ _ => apply tr_catch_cls; [stab | | intros ?]
  | iterM _ _ => apply tr_iterM; [stab | intros ? ?]
  | zipM _ _ _ => apply tr_zipM; [stab | intros ? ? ?]
  | if ?c then _ else _ => destruct c eqn:?
  | match ?x with _ => _ end => destruct x eqn:?
  | let _ := _ in _ => cbv zeta
  | fst (match ?x with _ => _ end) => destruct x; cbn [fst snd]
  | snd (match ?x with _ => _ end) => destruct x; cbn [fst snd]
  | _ => let h := head_of m in unfold h
  end.
Lemma tr_ret_prim (P : st -> Prop) k p : is_primitive p = true -> payload_kind p = k -> tr P (ret (res_of k p)) (fun r s => resok r s).
Proof.
  intros Hprim Hk. eapply tr_post; [apply tr_ret|]. intros a s [-> _] q E. cbn in E. inversion E; subst q. split; [|split; [exact Hk|]]. { apply valok_nonrec. intros tn c ->. discriminate Hprim. } intros tn Hn. destruct p; cbn in Hn, Hprim; discriminate.
Qed.
(* three rules [ht] itself calls (ht_bind below), so each walks its definition with a short loop of its own *)
Lemma tr_run_builtin (P : st -> Prop) n fc args : stable P -> tr P (run_builtin n fc args) (fun r s => resok r s).
Proof.
  intros SP. unfold run_builtin. cbv zeta.
  repeat lazymatch goal with
         | |- tr _ (ret _) _ => apply tr_ret_prim; reflexivity
         | |- tr _ (bind _ _) _ => eapply tr_bind; [stab | apply tr_hn; [stab | unfold next_rand; hnt] | intros ?]
         | |- tr _ (if ?c then _ else _) _ => destruct c
         | |- tr _ (match ?x with _ => _ end) _ => destruct x
         | |- tr _ ?m _ => ht_end m
         end.
Qed.

Lemma tr_cast_prim (P : st -> Prop) t c p target : stable P -> tr P (cast_prim t c p target) (fun p' s => (forall tn k, p' <> PRec tn k) /\ payload_kind p' = target /\ pname p' = None).
Proof.
  intros SP. unfold cast_prim.
  repeat lazymatch goal with
         | |- tr _ (ret _) _ => eapply tr_post; [apply tr_ret | intros ? ? [-> _]; split; [intros ? ?; discriminate|split; reflexivity]]
         | |- tr _ (bind _ _) _ => eapply tr_bind with (Q := fun _ _ => True); [stab | apply tr_hn_true, hn_prim_to_string | intros ?]
         | |- tr _ (match ?x with _ => _ end) _ => destruct x
         | |- tr _ ?m _ => ht_end m
         end.
Qed.
Lemma tr_implicit_cast (P : st -> Prop) ty r : stable P -> (forall s, P s -> resok r s) -> tr P (implicit_cast ty r) (fun r' s => resok r' s).
Proof.
  intros SP HR. unfold implicit_cast, as_int, as_str, as_char.
  repeat lazymatch goal with
         | |- tr _ (ret r) _ => eapply tr_post; [apply tr_ret | intros ? ? [-> Hs]; apply HR; tauto]
         | |- tr _ (ret _) _ => apply tr_ret_prim; reflexivity
         | |- tr _ (bind ?m _) _ => ht_reads_then m
         | |- tr _ (if ?c then _ else _) _ => destruct c
         | |- tr _ (match ?x with _ => _ end) _ => destruct x
         | |- tr _ ?m _ => ht_end m
         end.
Qed.

Ltac ht_bind fork m :=
  lazymatch m with
  | bind _ _ => apply tr_assoc
  | ret _ => apply tr_ret_bind
  | failm _ => apply tr_fail_bind; okf
  | crash _ => apply tr_fail_bind; okf
  | unsupported _ => apply tr_fail_bind; okf
  | rt_error _ _ => apply tr_error_bind
  | runtime_error_cls _ _ _ => apply tr_error_bind
  | not_defined_error _ _ => apply tr_error_bind
  | array_direct_error _ _ => apply tr_error_bind
  | fresh => lazymatch goal with |- tr _ (bind fresh (fun id => bind (put_cell id _) _)) _ => apply tr_alloc_cell; [stab | | intros ? ?] end
  | get_cell _ => ht_seq ltac:(apply tr_get_cell)
  | get_arr _ => ht_seq ltac:(apply tr_get_arr)
  | get_ctx _ => ht_seq ltac:(apply tr_get_ctx)
  | new_ctx _ _ _ _ _ => ht_seq ltac:(apply tr_new_ctx; stab)
  | as_payload _ => ht_seq ltac:(apply tr_as_payload)
  | cast_prim _ _ _ _ => ht_seq ltac:(apply tr_cast_prim; stab)
  | implicit_cast _ _ => ht_seq ltac:(apply tr_implicit_cast; [stab | ])
  | run_builtin _ _ _ => ht_seq ltac:(apply tr_run_builtin; stab)
  | copy_val _ _ => ht_seq ltac:(apply (proj1 (copy_tr _)); [stab | ])
  | call_body _ _ _ _ => ht_seq ltac:(apply trT_call_body; [intros ? ?; ht_call ok_run_block | stab])
  | ev_new_var _ _ _ _ _ => ht_seq ltac:(ht_call ok_new_var)
  | ev_eval _ _ _ => ht_seq ltac:(ht_call ok_eval)
  | ev_call_function _ _ _ _ => ht_seq ltac:(ht_call ok_call_function)
  | mapM (fun a => ev_eval _ a _) _ => ht_seq ltac:(ht_call tr_mapM_resok)
  | ev_bind_args _ _ _ _ _ _ _ => ht_join; [lazymatch goal with Hs : evs_ok ?e |- _ => apply (ok_bind_args e Hs); [stab | ] end | ]
  | catch_cls _ _ _ => first [ (fork; apply tr_bind_catch_cls; [stab | | intros ?]) | ht_reads_then m | ht_join ]
  | if ?c then _ else _ => first [ (fork; destruct c eqn:?) | ht_reads_then m | ht_join ]
  | match ?x with _ => _ end => first [ (fork; destruct x eqn:?) | ht_reads_then m | ht_join ]
  | _ => first [ ht_reads_then m | ht_join ]
  end.
Ltac ht_step fork :=
  lazymatch goal with
  | |- tr _ (bind ?m _) _ => ht_bind fork m
  | |- tr _ ?m (fun _ _ => True) => first [ ht_reads m | ht_end m ]
  | |- tr _ ?m _ => ht_end m
  end.
(* [ht]: a case split in the first computation of a sequence is passed as a whole, with nothing known of its result afterwards;
   [hts]: the split is made and the rest of the sequence executed once per branch, each knowing what its branch established *)
Ltac ht known := repeat first [ known | ht_step fail ].
Ltac hts known := repeat first [ known | ht_step idtac ].
Ltac ht0 := ht fail.

Section Level.
Variables (repl : bool) (lim : limits) (self : evs).
Hypothesis Hself : evs_ok self.

Lemma tr_new_var_body (P : st -> Prop) name ty cst owner : stable P -> tr P (new_var_body self name ty cst owner) (newvar_post name ty cst owner).
Proof.
  intros SP. unfold new_var_body. destruct (default_prim ty) as [p|] eqn:Ed.
  - apply tr_alloc_cell; [exact SP| |].
    + intros s _. unfold cell_ok. cbn [c_val c_type]. split; [apply valok_nonrec; intros tn c E; subst p; destruct ty as [k n]; destruct k, n; cbn in Ed; discriminate|].
      destruct ty as [k n]. destruct k, n; cbn in Ed; inversion Ed; (split; [reflexivity|]); intros tn0 Hn0; cbn in Hn0; first [discriminate Hn0|inversion Hn0; reflexivity].
    + intros id _. eapply tr_post; [apply tr_ret|]. intros a s [-> [_ Hm]]. exists p. split; [exact Hm|eapply default_prim_named; eauto].
  - destruct (dk ty) eqn:Ek; try (apply tr_failm; okf). destruct (dname ty) as [tn|] eqn:En; try (apply tr_failm; okf).
    eapply tr_bind; [exact SP|apply tr_new_ctx; exact SP|]. intros rc.
    eapply tr_bind; [stab|apply tr_hn; [stab|hnt]|]. intros dd.
    destruct dd as [body|]; [|(apply tr_failm; okf)].
    eapply tr_bind; [stab|apply (ok_run_block self Hself); stab|]. intros u.
    apply tr_alloc_cell; [stab| |].
    + intros s [[[_ Hk] _] _]. unfold cell_ok. cbn [c_val c_type]. split; [intros tn' c' E; inversion E; subst; exact Hk|]. split; [cbn; rewrite Ek; reflexivity|]. intros tn0 Hn0. cbn in Hn0. inversion Hn0; subst. exact En.
    + intros id _. eapply tr_post; [apply tr_ret|]. intros a s [-> [_ Hm]]. exists (PRec tn rc). split; [exact Hm|]. intros _. rewrite En. discriminate.
Qed.

Lemma tr_resolve_body (P : st -> Prop) r c : stable P -> tr P (resolve_body self r c) (fun _ _ => True).
Proof. intros SP. destruct r; unfold resolve_body; ht0; bad_contra. Qed.
Lemma tr_case_equals_body (P : st -> Prop) v e c : stable P -> tr P (case_equals_body self v e c) (fun _ _ => True).
Proof. intros SP. unfold case_equals_body; ht0. Qed.
Lemma tr_case_range_body (P : st -> Prop) v lo hi c : stable P -> tr P (case_range_body self v lo hi c) (fun _ _ => True).
Proof. intros SP. unfold case_range_body; ht0. Qed.

Lemma tr_new_array_body (P : st -> Prop) name ty dims owner : stable P -> tr P (new_array_body lim self name ty dims owner) (fun _ _ => True).
Proof.
  intros SP. unfold new_array_body. cbv zeta.
  eapply tr_bind; [exact SP|apply tr_hn; [exact SP|unfold alloc_cells, budget_error; hnt]|]. intros u.
  eapply tr_bind; [stab|apply (tr_repeatM _ _ (newvar_post name ty false owner)); [stab|intros; apply stable_newvar_post|apply (ok_new_var self Hself); stab]|]. intros elems.
  apply tr_alloc_arr; [stab| |].
  - intros s [_ HF]. cbn [a_elems a_type]. eapply Forall_impl; [|exact HF]. intros e He0. split; [eapply newvar_nonconst; exact He0|eapply newvar_hastype; exact He0].
  - intros aid. eapply tr_true. apply tr_ret.
Qed.

Lemma tr_bind_args_body (P : st -> Prop) t params args vals c fc : stable P ->
  (forall s, P s -> ctxkind fc false s /\ Forall (fun v => resok v s) vals) -> tr P (bind_args_body self t params args vals c fc) (fun _ _ => True).
Proof.
  intros SP HP. unfold bind_args_body.
  destruct params as [|[[pn pty] byref] pr]; [eapply tr_true; apply tr_ret|]. destruct args as [|a ar]; [(apply tr_failm; okf)|]. destruct vals as [|v vr]; [(apply tr_failm; okf)|].
  ht0.
  - (* BYREF: the caller's cell enters the table of fc, which is no record's context *)
    intros s Hs cx E F. exfalso. assert (HPs : P s) by tauto. destruct (HP s HPs) as [Hk _]. eapply not_rec_contra; eauto.
  - (* BYVAL: the cell just made for the parameter may be written *)
    intros s Hs. eapply newvar_wr. decompose [and] Hs. eassumption.
  - (* ... and enters the table of fc *)
    intros s Hs cx E F. exfalso. assert (HPs : P s) by tauto. destruct (HP s HPs) as [Hk _]. eapply not_rec_contra; eauto.
  - apply (ok_bind_args self Hself); [stab|]. intros s Hs. assert (HPs : P s) by tauto. destruct (HP s HPs) as [Hk HF]. split; [exact Hk|]. inversion HF; assumption.
Qed.

Lemma tr_run_block_body (P : st -> Prop) bl c : stable P -> tr P (run_block_body repl lim self bl c) (fun _ _ => True).
Proof. intros SP. unfold run_block_body. ht0. Qed.

Lemma tr_call_procedure_body (P : st -> Prop) t name args c : stable P -> tr P (call_procedure_body lim self t name args c) (fun r s => resok r s).
Proof.
  intros SP. unfold call_procedure_body. ht0.
  (* what binding the arguments needs: the new context is no record's, the argument values are proper values *)
  intros s Hs. decompose [and] Hs. split; assumption.
Qed.

Lemma tr_call_function_body (P : st -> Prop) t args c : stable P -> tr P (call_function_body lim self t args c) (fun r s => resok r s).
Proof.
  intros SP. unfold call_function_body. cbv zeta. ht0.
  - intros s Hs. decompose [and] Hs. split; assumption.
  - intros r' s [-> Hs]. decompose [and] Hs. match goal with HR : retok _ s |- _ => apply HR; assumption end.
Qed.
End Level.
