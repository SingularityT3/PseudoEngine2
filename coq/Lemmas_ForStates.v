(* Lemmas_ForStates.v -- the FOR header, in every state: a counter that is a constant, and a counter that is not of type INTEGER, are
   runtime errors raised before any bound is evaluated; the whole state is as it was. *)
From PE2 Require Import Eval Lemmas_Store.
Local Open Scope N_scope.

Section ForHeader.
Variables (ped repl : bool) (lim : limits) (fuel : nat).
Notation ev := (ev_eval (evs_at ped repl lim (S fuel))).

Theorem for_over_a_constant_is_an_error t id start stop step body c s i cl :
  lookup_var c (tval id) true s = (Ok (Some i), s) -> nm_get i (s_cells s) = Some cl -> c_const cl = true ->
  exists f, ev (NFor t id start stop step body) c s = (Fail f, s).
Proof.
  intros Hl Ec Hc. rewrite eval_S. cbn [eval_body]. rewrite (bind_ok Hl), bind_ret, (bind_ok (get_cell_at Ec)), Hc. apply rt_error_pure.
Qed.

Theorem for_counter_must_be_an_integer_variable t id start stop step body c s i cl :
  lookup_var c (tval id) true s = (Ok (Some i), s) -> nm_get i (s_cells s) = Some cl -> c_const cl = false -> dk (c_type cl) <> KInt ->
  exists f, ev (NFor t id start stop step body) c s = (Fail f, s).
Proof.
  intros Hl Ec Hc Hk%dt_is_false. rewrite eval_S. cbn [eval_body]. rewrite (bind_ok Hl), bind_ret, (bind_ok (get_cell_at Ec)), Hc, Hk. apply rt_error_pure.
Qed.
End ForHeader.
