(* Lemmas_PedParser.v — --pedantic only rejects, parser part: run with the option the parser either fails
   with a pedantic error or returns exactly what it returns without it (AST, remaining tokens, warnings). *)
From PE2 Require Import Parser Lemmas_ParserCong.

Definition ped_failure A (r : pres A) : Prop := exists t s, r = PFail LexPedantic t s.

Lemma ped_failure_bind A B (r : pres A) (k : A -> P B) :
  ped_failure A r -> ped_failure B (match r with POk a s => k a s | PFail kd t s => PFail kd t s | PFuel => PFuel end).
Proof. intros (t & s & ->). exists t, s. reflexivity. Qed.

Lemma prs_at_rel fuel : prs_cong ped_failure 0 (prs_at true fuel) (prs_at false fuel).
Proof.
  rewrite (plus_n_O fuel) at 2. apply prs_at_cong.
  - exact ped_failure_bind.
  - (* no extra fuel *) left. reflexivity.
  - (* the option on the first side only, and its rejections are the bad outcome *) right. split; [reflexivity|]. intros A t s. exists t, s. reflexivity.
Qed.

Theorem parse_block_ped_only_rejects fuel bt : PRel ped_failure (parse_block true fuel bt) (parse_block false fuel bt).
Proof. exact (c_parse_block _ _ _ _ (prs_at_rel fuel) bt). Qed.

Theorem parse_program_ped_only_rejects ts : res_rel ped_failure (parse_program true ts) (parse_program false ts).
Proof.
  unfold parse_program. apply (PRel_bind _ ped_failure_bind); [apply parse_block_ped_only_rejects|].
  intros b0. apply PRel_refl.
Qed.
