(* Lemmas_Store.v — what a statement-level proof starts from: the steps of the state monad and the runtime error (Lemmas_Copy.v,
   passed on to whoever imports this file), the evaluator one level down and what several statements do first; then the implicit
   conversions applied at every store channel (NodeResult::implicitCast). *)
From PE2 Require Import Eval Lemmas_Frame.
From PE2 Require Export Lemmas_Copy.
Local Open Scope Z_scope.

Lemma dt_is_true a k : dt_is a k = true <-> dk a = k.
Proof. unfold dt_is. apply dk_eqb_eq. Qed.
Lemma dt_is_false a k : dt_is a k = false <-> dk a <> k.
Proof. rewrite <- dt_is_true. symmetry. apply Bool.not_true_iff_false. Qed.

Lemma if_true {A} (c : bool) (a b : A) : c = true -> (if c then a else b) = a.
Proof. intros ->. reflexivity. Qed.

Lemma ro_run {A} {m : M A} (H : ro m) s : exists o, m s = (o, s).
Proof. specialize (H s). destruct (m s) as [o s']. exists o. cbn [snd] in H. rewrite H. reflexivity. Qed.

Lemma get_cell_pure c s o s' : get_cell c s = (o, s') -> s' = s.
Proof. intros E. pose proof (ro_get_cell c s) as H. rewrite E in H. exact H. Qed.

Lemma update_file_at fh s : update_file fh s = (Ok Datatypes.tt, set_files (replace_file fh (s_files s)) s).
Proof. reflexivity. Qed.

(* std::getline takes a prefix of the input and touches nothing else *)
Lemma read_line_spec s : exists l rest eof, read_line s = (Ok (l, eof), set_in rest s).
Proof. unfold read_line. rewrite bind_gets. destruct (_ (s_in s) []) as [[l rest] eof]. exists l, rest, eof. reflexivity. Qed.

Lemma eval_S ped repl lim f : ev_eval (evs_at ped repl lim (S f)) = eval_body ped lim (evs_at ped repl lim f).
Proof. reflexivity. Qed.
Lemma resolve_S ped repl lim f : ev_resolve (evs_at ped repl lim (S f)) = resolve_body (evs_at ped repl lim f).
Proof. reflexivity. Qed.
Lemma eval_NStr {ped repl lim f t c s} : ev_eval (evs_at ped repl lim (S f)) (NStr t) c s = (Ok (res_of KStr (PStr (tval t))), s).
Proof. reflexivity. Qed.

(* What several statements do first, with what follows as a continuation [k]. *)
Section Prologues.
Context {A : Type} {ped : bool} {self : evs} {t : token} {c : N}.

(* the seven statements that take a file: the name, then the table of open handles *)
Lemma file_name_first {fn} {k : str -> list ofile -> M A} {s name s1} :
  ev_eval self fn c s = (Ok (res_of KStr (PStr name)), s1) ->
  (fr <- ev_eval self fn c ;; if negb (dt_is (r_type fr) KStr) then rt_error t c else
   nm <- as_str fr ;; fl <- gets s_files ;; k nm fl) s = k name (s_files s1) s1.
Proof. intros H. rewrite (bind_ok H). reflexivity. Qed.

(* SEEK: the address, an INTEGER from 1 upwards, before the name *)
Lemma address_first {a} {k : Z -> M A} {s ar addr s1} :
  ev_eval self a c s = (Ok ar, s1) -> dk (r_type ar) = KInt -> r_val ar = Some (PInt addr) -> 1 <= addr ->
  (ar <- ev_eval self a c ;; if negb (dt_is (r_type ar) KInt) then rt_error t c else
   addr <- as_int ar ;; if addr <? 1 then rt_error t c else k addr) s = k addr s1.
Proof.
  intros Ha Hk%dt_is_true Hv Hpos%Z.ltb_ge. rewrite (bind_ok Ha), Hk. unfold as_int. rewrite Hv. cbn [negb]. rewrite bind_ret, Hpos.
  reflexivity.
Qed.

(* INPUT: the target; a simple name that resolves is not declared on the way *)
Lemma input_target {r} {k : N -> M A} {s id s1} : ev_resolve self r c s = (Ok (HVar id), s1) ->
  (id <- match r with
         | RSimple tk =>
           catch_cls (h <- ev_resolve self r c ;; expect_holder_var t c h) is_not_defined
                     (fun fl => ist <- is_identifier_type c tk true ;;
                                if ist then failm fl
                                else ped_guard ped tk ;;; nid <- ev_new_var self (tval tk) (dt_prim KStr) false c ;;
                                     add_var c (tval tk) nid ;;; ret nid)
         | _ => h <- ev_resolve self r c ;; expect_holder_var t c h
         end ;; k id) s = k id s1.
Proof. intros H. refine (bind_ok _). destruct r; unfold catch_cls, catch; rewrite (bind_ok H); reflexivity. Qed.
End Prologues.

Definition well_tagged (r : result) : Prop :=
  match r_val r with Some p => payload_kind p = dk (r_type r) | None => dk (r_type r) = KNone end.

(* the three documented conversions, as a predicate on the source value and the target kind *)
Definition convertible (k : dkind) (r : result) : Prop :=
  dk (r_type r) = k \/
  (k = KReal /\ dk (r_type r) = KInt) \/
  (k = KChar /\ dk (r_type r) = KStr /\ exists ch, r_val r = Some (PStr [ch])) \/
  (k = KStr /\ dk (r_type r) = KChar).

Lemma cast_guard a k b k' : dt_is a k && dt_is b k' = true <-> dk a = k /\ dk b = k'.
Proof. rewrite andb_true_iff, !dt_is_true. reflexivity. Qed.

(* one case for each conversion, by its guard, and one for none; a value that passes a guard has, being well tagged, the payload the
   conversion reads *)
Lemma implicit_cast_total target r s : well_tagged r ->
  exists r', implicit_cast target r s = (Ok r', s) /\ well_tagged r' /\
             (dk (r_type r') = dk target <-> convertible (dk target) r).
Proof.
  intros W. pose proof W as P. unfold well_tagged in P. unfold implicit_cast, convertible.
  destruct (dt_is target KReal && dt_is (r_type r) KInt) eqn:G1;
    [|destruct (dt_is target KChar && dt_is (r_type r) KStr) eqn:G2; [|destruct (dt_is target KStr && dt_is (r_type r) KChar) eqn:G3]].
  - apply cast_guard in G1 as [Ht Hk]. rewrite Ht, Hk in *. unfold as_int.
    destruct (r_val r) as [[z| | | | | | | |]|]; try discriminate P.
    eexists. split; [reflexivity|]. split; [reflexivity|]. split; [auto|reflexivity].
  - apply cast_guard in G2 as [Ht Hk]. rewrite Ht, Hk in *. unfold as_str.
    destruct (r_val r) as [[| | | |x| | | |]|]; try discriminate P.
    destruct x as [|ch [|ch' x]]; [|eexists; split; [reflexivity|]; split; [reflexivity|]; split; [eauto 7|reflexivity]|];
      (exists r; split; [reflexivity|]; split; [exact W|]; rewrite Hk; split; [discriminate|];
       intros [E|[[E _]|[[_ [_ [y E]]]|[E _]]]]; discriminate E).
  - apply cast_guard in G3 as [Ht Hk]. rewrite Ht, Hk in *. unfold as_char.
    destruct (r_val r) as [[| | |ch| | | | |]|]; try discriminate P.
    eexists. split; [reflexivity|]. split; [reflexivity|]. split; [auto 6|reflexivity].
  - rewrite <- not_true_iff_false, cast_guard in G1, G2, G3.
    exists r. split; [reflexivity|]. split; [exact W|]. split; [auto|].
    intros [E|[E|[[E1 [E2 _]]|E]]]; [exact E|elim (G1 E)|elim (G2 (conj E1 E2))|elim (G3 E)].
Qed.

Lemma implicit_cast_pure target r s o s' : implicit_cast target r s = (o, s') -> s' = s.
Proof. intros E. pose proof (ro_implicit_cast target r s) as H. rewrite E in H. exact H. Qed.

(* the store is reached only after the constant test and the type test: when the value is not
   convertible to the target's type, or the target is a constant, nothing is written *)
Lemma rejected_store_no_effect t c id v s cl :
  get_cell id s = (Ok cl, s) -> well_tagged v ->
  (c_const cl = true \/ ~ convertible (dk (c_type cl)) v) ->
  exists f, store_value t c id v s = (Fail f, s).
Proof.
  intros Hc W Hrej. unfold store_value. rewrite (bind_ok Hc).
  destruct (c_const cl); [apply rt_error_pure|]. destruct Hrej as [Hrej|Hrej]; [discriminate|].
  destruct (implicit_cast_total (c_type cl) v s W) as [r' [E1 [_ Hiff]]]. rewrite (bind_ok E1).
  destruct (dt_eq (c_type cl) (r_type r')) eqn:E; [|apply rt_error_pure].
  exfalso. apply Hrej, Hiff. symmetry. exact (dt_eq_kind _ _ E).
Qed.
