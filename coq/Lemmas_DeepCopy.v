(* Lemmas_DeepCopy.v — the copy constructor of record values (Heap.copy_val / copy_ctx: Composite(const Composite&),
   Context(const Context&)) makes a deep, independent copy.  For every record value, however nested (records in records,
   array fields, arrays of records), every state and every fuel: the copy has the value of the source (field names, types,
   CONSTANT flags, leaves, array shapes); everything that existed before is untouched; every context, cell and array under
   the copy has an identifier that did not exist before.  Hence a later write to storage older than the copy cannot change
   the copy, nor one to storage made by or after the copy the source.  The premise hb holds of the initial state. *)
From PE2 Require Import Heap Lemmas_Copy Run.
Require Import Lia.
Local Open Scope N_scope.

(* the value stored under a payload, read off the heap *)
Inductive tree :=
 | TLeaf (p : payload)
 | TRec (tn : str) (fields : list (str * str * dtype * bool * tree))
        (arrays : list (str * str * dtype * list (Z * Z) * list (str * dtype * tree))).

Fixpoint mapO {A B} (f : A -> option B) (l : list A) : option (list B) :=
  match l with
  | [] => Some []
  | x :: r => match f x, mapO f r with Some y, Some ys => Some (y :: ys) | _, _ => None end
  end.

Definition view_field (vw : payload -> option tree) (s : st) (nv : str * N) : option (str * str * dtype * bool * tree) :=
  match nm_get (snd nv) (s_cells s) with
  | None => None
  | Some cl => match vw (c_val cl) with None => None | Some t => Some (fst nv, c_name cl, c_type cl, c_const cl, t) end
  end.
Definition view_elem (vw : payload -> option tree) (s : st) (e : N) : option (str * dtype * tree) :=
  match nm_get e (s_cells s) with
  | None => None
  | Some cl => match vw (c_val cl) with None => None | Some t => Some (c_name cl, c_type cl, t) end
  end.
Definition view_arr (vw : payload -> option tree) (s : st) (na : str * N) :
  option (str * str * dtype * list (Z * Z) * list (str * dtype * tree)) :=
  match nm_get (snd na) (s_arrs s) with
  | None => None
  | Some a => match mapO (view_elem vw s) (a_elems a) with None => None | Some ts => Some (fst na, a_name a, a_type a, a_dims a, ts) end
  end.

Fixpoint view (g : nat) (s : st) (p : payload) : option tree :=
  match p with
  | PRec tn c =>
    match g with
    | O => None
    | S g' =>
      match nm_get c (s_ctxs s) with
      | None => None
      | Some cx =>
        match mapO (view_field (view g' s) s) (x_vars cx), mapO (view_arr (view g' s) s) (x_arrs cx) with
        | Some fs, Some ars => Some (TRec tn fs ars)
        | _, _ => None
        end
      end
    end
  | _ => Some (TLeaf p)
  end.

Definition ext (s1 s2 : st) : Prop :=
  (forall id x, nm_get id (s_cells s1) = Some x -> nm_get id (s_cells s2) = Some x) /\
  (forall id x, nm_get id (s_arrs s1) = Some x -> nm_get id (s_arrs s2) = Some x) /\
  (forall id x, nm_get id (s_ctxs s1) = Some x -> nm_get id (s_ctxs s2) = Some x).
(* the heap is bounded: identifiers in use are below the allocation counter *)
Definition hb (s : st) : Prop :=
  (forall id x, nm_get id (s_cells s) = Some x -> id < s_next s) /\
  (forall id x, nm_get id (s_arrs s) = Some x -> id < s_next s) /\
  (forall id x, nm_get id (s_ctxs s) = Some x -> id < s_next s).
Definition agree_from (b : N) (s1 s2 : st) : Prop :=
  (forall id, b <= id -> nm_get id (s_cells s2) = nm_get id (s_cells s1)) /\
  (forall id, b <= id -> nm_get id (s_arrs s2) = nm_get id (s_arrs s1)) /\
  (forall id, b <= id -> nm_get id (s_ctxs s2) = nm_get id (s_ctxs s1)).
Definition same_rest (s1 s2 : st) : Prop :=
  s_procs s2 = s_procs s1 /\ s_funcs s2 = s_funcs s1 /\ s_out s2 = s_out s1 /\ s_in s2 = s_in s1 /\ s_fs s2 = s_fs s1 /\
  s_files s2 = s_files s1 /\ s_steps s2 = s_steps s1 /\ s_cellcount s2 = s_cellcount s1 /\ s_depth s2 = s_depth s1 /\ s_rand s2 = s_rand s1.

Lemma ext_refl s : ext s s.
Proof. repeat split; auto. Qed.
Lemma ext_trans a b c : ext a b -> ext b c -> ext a c.
Proof. intros [A1 [A2 A3]] [B1 [B2 B3]]. repeat split; intros; auto. Qed.
Lemma same_rest_refl s : same_rest s s.
Proof. repeat split. Qed.
Lemma same_rest_trans a b c : same_rest a b -> same_rest b c -> same_rest a c.
Proof. unfold same_rest. intros H1 H2. decompose [and] H1. decompose [and] H2. repeat split; congruence. Qed.

(* the value is complete and every identifier under it is at least b *)
Fixpoint above (b : N) (g : nat) (s : st) (p : payload) : Prop :=
  match p with
  | PRec tn c =>
    match g with
    | O => True
    | S g' =>
      b <= c /\
      exists cx, nm_get c (s_ctxs s) = Some cx /\
        Forall (fun nv : str * N => b <= snd nv /\ exists cl, nm_get (snd nv) (s_cells s) = Some cl /\ above b g' s (c_val cl)) (x_vars cx) /\
        Forall (fun na : str * N => b <= snd na /\ exists a, nm_get (snd na) (s_arrs s) = Some a /\
                  Forall (fun e : N => b <= e /\ exists cl, nm_get e (s_cells s) = Some cl /\ above b g' s (c_val cl)) (a_elems a)) (x_arrs cx)
    end
  | _ => True
  end.

Definition shown {A A' B} (F : A -> option B) (G : A' -> option B) (x : A) (y : A') : Prop := forall t, F x = Some t -> G y = Some t.

Lemma mapO_shown {A A' B} (F : A -> option B) (G : A' -> option B) l l' : Forall2 (shown F G) l l' -> shown (mapO F) (mapO G) l l'.
Proof.
  induction 1 as [|x y r r' Hxy _ IH]; intros ts E; [exact E|]. cbn [mapO] in *.
  destruct (F x) as [t|] eqn:Ex; [|discriminate]. destruct (mapO F r) as [tr|] eqn:Er; [|discriminate].
  rewrite (Hxy t Ex), (IH tr Er). exact E.
Qed.
Lemma mapO_ext {A B} (f g : A -> option B) l : Forall (fun x => f x = g x) l -> mapO f l = mapO g l.
Proof. induction 1 as [|x r Hx _ IH]; [reflexivity|]. cbn [mapO]. rewrite Hx, IH. reflexivity. Qed.
Lemma Forall2_diag {A} (P : A -> A -> Prop) l : (forall x, P x x) -> Forall2 P l l.
Proof. intros H. induction l; constructor; auto. Qed.
Lemma Forall2_impl {A B} (P Q : A -> B -> Prop) l l' : (forall x y, P x y -> Q x y) -> Forall2 P l l' -> Forall2 Q l l'.
Proof. intros H F. induction F; constructor; auto. Qed.
Lemma Forall2_Forall_r {A B} (P : A -> B -> Prop) (Q : B -> Prop) l l' : Forall2 P l l' -> (forall x y, P x y -> Q y) -> Forall Q l'.
Proof. intros F H. induction F; constructor; eauto. Qed.

(* view_field and view_elem read a cell in the same way and differ in what they report of it: by computation,
   view_field vw s nv is view_cell (field_of (fst nv)) vw s (snd nv) and view_elem is view_cell elem_of,
   so that what is proved of view_cell for every mk applies to both *)
Definition view_cell {T} (mk : cell -> tree -> T) (vw : payload -> option tree) (s : st) (id : N) : option T :=
  match nm_get id (s_cells s) with
  | None => None
  | Some cl => match vw (c_val cl) with None => None | Some t => Some (mk cl t) end
  end.
Definition field_of (n : str) (cl : cell) (t : tree) := (n, c_name cl, c_type cl, c_const cl, t).
Definition elem_of (cl : cell) (t : tree) := (c_name cl, c_type cl, t).
Lemma view_cell_transport {T} (mk mk' : cell -> tree -> T) vw vw' s s' id id' :
  (forall cl, nm_get id (s_cells s) = Some cl -> exists cl', nm_get id' (s_cells s') = Some cl' /\
     forall t, vw (c_val cl) = Some t -> vw' (c_val cl') = Some t /\ mk' cl' t = mk cl t) ->
  shown (view_cell mk vw s) (view_cell mk' vw' s') id id'.
Proof.
  unfold view_cell. intros H y E. destruct (nm_get id (s_cells s)) as [cl|]; [|discriminate]. destruct (H cl eq_refl) as [cl' [-> H']].
  destruct (vw (c_val cl)) as [t|]; [|discriminate]. destruct (H' t eq_refl) as [-> ->]. exact E.
Qed.
Lemma view_arr_transport vw vw' s s' na na' : fst na' = fst na ->
  (forall a, nm_get (snd na) (s_arrs s) = Some a -> exists a', nm_get (snd na') (s_arrs s') = Some a' /\
     a_name a' = a_name a /\ a_type a' = a_type a /\ a_dims a' = a_dims a /\
     Forall2 (shown (view_elem vw s) (view_elem vw' s')) (a_elems a) (a_elems a')) ->
  shown (view_arr vw s) (view_arr vw' s') na na'.
Proof.
  unfold view_arr. intros Hn H y E. destruct (nm_get (snd na) (s_arrs s)) as [a|]; [|discriminate].
  destruct (H a eq_refl) as [a' [-> [-> [-> [-> F]]]]].
  destruct (mapO (view_elem vw s) (a_elems a)) as [ts|] eqn:Ets; [|discriminate]. rewrite (mapO_shown _ _ _ _ F _ Ets), Hn. exact E.
Qed.
Lemma view_rec_transport g s s' tn c c' :
  (forall cx, nm_get c (s_ctxs s) = Some cx -> exists cx', nm_get c' (s_ctxs s') = Some cx' /\
     Forall2 (shown (view_field (view g s) s) (view_field (view g s') s')) (x_vars cx) (x_vars cx') /\
     Forall2 (shown (view_arr (view g s) s) (view_arr (view g s') s')) (x_arrs cx) (x_arrs cx')) ->
  shown (view (S g) s) (view (S g) s') (PRec tn c) (PRec tn c').
Proof.
  intros H t. cbn [view]. intros E. destruct (nm_get c (s_ctxs s)) as [cx|]; [|discriminate]. destruct (H cx eq_refl) as [cx' [-> [Fv Fa]]].
  destruct (mapO (view_field (view g s) s) (x_vars cx)) as [fs|] eqn:Ef; [|discriminate].
  destruct (mapO (view_arr (view g s) s) (x_arrs cx)) as [ars|] eqn:Ea; [|discriminate].
  rewrite (mapO_shown _ _ _ _ Fv _ Ef), (mapO_shown _ _ _ _ Fa _ Ea). exact E.
Qed.

(* names for the anonymous functions in above: by computation, above b (S g) s (PRec tn c) says b <= c and that the context c
   of s has every field in cell_above b (above b g s) s and every array field in arr_above b (above b g s) s *)
Definition cell_above (b : N) (P : payload -> Prop) (s : st) (id : N) : Prop :=
  b <= id /\ exists cl, nm_get id (s_cells s) = Some cl /\ P (c_val cl).
Definition arr_above (b : N) (P : payload -> Prop) (s : st) (id : N) : Prop :=
  b <= id /\ exists a, nm_get id (s_arrs s) = Some a /\ Forall (cell_above b P s) (a_elems a).

Lemma view_ext : forall g s1 s2 p t, ext s1 s2 -> view g s1 p = Some t -> view g s2 p = Some t.
Proof.
  induction g as [|g IH]; intros s1 s2 p t He; destruct p as [| | | | | | | |tn c]; try (intros Hv; exact Hv).
  assert (C : forall T (mk : cell -> tree -> T) id, shown (view_cell mk (view g s1) s1) (view_cell mk (view g s2) s2) id id).
  { intros T mk id. apply view_cell_transport. intros cl Ecl. exists cl. split; [apply He, Ecl|]. intros t0 Ht. split; [apply (IH _ _ _ _ He Ht)|reflexivity]. }
  apply view_rec_transport. intros cx Ec. exists cx. split; [apply He, Ec|].
  split; apply Forall2_diag; intros x; [apply C|].
  apply view_arr_transport; [reflexivity|]. intros a Ea. exists a. split; [apply He, Ea|]. repeat split. apply Forall2_diag. intros e. apply C.
Qed.

Lemma view_agree_from : forall g b s1 s2 p, agree_from b s1 s2 -> above b g s1 p -> view g s2 p = view g s1 p.
Proof.
  induction g as [|g IH]; intros b s1 s2 p Ha Hab; destruct p as [| | | | | | | |tn c]; try reflexivity.
  cbn [view above] in *. destruct Hab as [Hc [cx [Ec [Hv Har]]]]. pose proof Ha as [A1 [A2 A3]]. rewrite (A3 c Hc), Ec.
  assert (C : forall T (mk : cell -> tree -> T) id, cell_above b (above b g s1) s1 id -> view_cell mk (view g s2) s2 id = view_cell mk (view g s1) s1 id).
  { intros T mk id [Hi [cl [E Hcl]]]. unfold view_cell. rewrite (A1 id Hi), E, (IH b s1 s2 _ Ha Hcl). reflexivity. }
  rewrite (mapO_ext _ (view_field (view g s1) s1)), (mapO_ext _ (view_arr (view g s1) s1)); [reflexivity| |].
  - eapply Forall_impl; [|exact Har]. intros na [Hi [a [E F]]]. unfold view_arr. rewrite (A2 _ Hi), E.
    rewrite (mapO_ext _ (view_elem (view g s1) s1)); [reflexivity|]. eapply Forall_impl; [|exact F]. apply C.
  - eapply Forall_impl; [|exact Hv]. intros nv. apply C.
Qed.

Definition keeps_from (b : N) (s1 s2 : st) : Prop :=
  (forall id x, b <= id -> nm_get id (s_cells s1) = Some x -> nm_get id (s_cells s2) = Some x) /\
  (forall id x, b <= id -> nm_get id (s_arrs s1) = Some x -> nm_get id (s_arrs s2) = Some x) /\
  (forall id x, b <= id -> nm_get id (s_ctxs s1) = Some x -> nm_get id (s_ctxs s2) = Some x).
Lemma ext_keeps b s1 s2 : ext s1 s2 -> keeps_from b s1 s2.
Proof. intros [E1 [E2 E3]]. repeat split; auto. Qed.
Lemma keeps_trans n b1 b2 s1 s2 s3 : b1 <= n -> b2 <= n -> keeps_from b1 s1 s2 -> keeps_from b2 s2 s3 -> keeps_from n s1 s3.
Proof.
  intros L1 L2 [A1 [A2 A3]] [B1 [B2 B3]]. repeat split; intros id x Hi E; [apply B1, A1|apply B2, A2|apply B3, A3]; try exact E; lia.
Qed.
(* a fact about storage that a copy has made stays true whatever is allocated, or written below n, afterwards;
   and of every bound b' up to n, so that what an inner copy made can be counted as made by the outer one *)
Definition closed (n : N) (Phi : st -> N -> Prop) (s : st) : Prop := forall s' b', keeps_from n s s' -> b' <= n -> Phi s' b'.

(* [hb s] is [nm_below (s_next s)] of the three components, by conversion *)
Definition nm_below {A} (n : N) (m : nmap A) : Prop := forall id x, nm_get id m = Some x -> id < n.
Definition nm_incl {A} (m m' : nmap A) : Prop := forall id x, nm_get id m = Some x -> nm_get id m' = Some x.
Lemma nm_get_empty {A} k : @nm_get A k nm_empty = None.
Proof. unfold nm_get, nm_empty. apply PositiveMap.gempty. Qed.
Lemma nm_below_empty {A} n : @nm_below A n nm_empty.
Proof. intros id x E. rewrite nm_get_empty in E. discriminate. Qed.
Lemma nm_below_none {A} n (m : nmap A) id : nm_below n m -> n <= id -> nm_get id m = None.
Proof. intros H Hi. destruct (nm_get id m) eqn:E; [|reflexivity]. apply H in E. lia. Qed.
Lemma nm_below_put {A} n k (x : A) m : nm_below n m -> k < n -> nm_below n (nm_put k x m).
Proof. intros H Hk id y E. destruct (N.eq_dec k id) as [<-|Hne]; [exact Hk|]. rewrite nm_get_put_other in E by exact Hne. exact (H _ _ E). Qed.
Lemma nm_incl_put {A} k (x : A) m0 m : nm_incl m0 m -> nm_get k m0 = None -> nm_incl m0 (nm_put k x m).
Proof. intros H Hk id y E. rewrite nm_get_put_other; [exact (H _ _ E)|]. intros ->. congruence. Qed.

Definition grown {A} (n : N) (m m' : nmap A) : Prop := nm_below (N.succ n) m' /\ nm_incl m m'.
Lemma grown_same {A} n (m : nmap A) : nm_below n m -> grown n m m.
Proof. intros H. split; [|exact (fun _ _ E => E)]. intros id x E. apply N.lt_lt_succ_r, (H _ _ E). Qed.
Lemma grown_put {A} n (x : A) m : nm_below n m -> grown n m (nm_put n x m).
Proof.
  intros H. split.
  - apply nm_below_put; [apply (grown_same n m H)|apply N.lt_succ_diag_r].
  - apply nm_incl_put; [exact (fun _ _ E => E)|apply (nm_below_none n m n H), N.le_refl].
Qed.

Definition grows (s1 s2 : st) : Prop := ext s1 s2 /\ same_rest s1 s2 /\ s_next s1 <= s_next s2.
Lemma grows_refl s : grows s s.
Proof. split; [apply ext_refl|]. split; [apply same_rest_refl|lia]. Qed.
Lemma grows_trans a b c : grows a b -> grows b c -> grows a c.
Proof. intros [A1 [A2 A3]] [B1 [B2 B3]]. split; [eapply ext_trans; eauto|]. split; [eapply same_rest_trans; eauto|lia]. Qed.

Lemma alloc_spec s cs ars cxs : grown (s_next s) (s_cells s) cs -> grown (s_next s) (s_arrs s) ars -> grown (s_next s) (s_ctxs s) cxs ->
  let s' := set_ctxs cxs (set_arrs ars (set_cells cs (set_next (N.succ (s_next s)) s))) in hb s' /\ grows s s'.
Proof.
  intros [B1 I1] [B2 I2] [B3 I3]. split; [exact (conj B1 (conj B2 B3))|]. split; [exact (conj I1 (conj I2 I3))|].
  split; [repeat split|apply N.le_succ_diag_r].
Qed.

Definition alloc_cell (c : cell) (s : st) : st := set_cells (nm_put (s_next s) c (s_cells s)) (set_next (N.succ (s_next s)) s).
Definition alloc_arr (a : arr) (s : st) : st := set_arrs (nm_put (s_next s) a (s_arrs s)) (set_next (N.succ (s_next s)) s).
Definition alloc_ctx (c : ctx) (s : st) : st := set_ctxs (nm_put (s_next s) c (s_ctxs s)) (set_next (N.succ (s_next s)) s).

Lemma alloc_cell_spec c s : hb s -> hb (alloc_cell c s) /\ grows s (alloc_cell c s) /\ nm_get (s_next s) (s_cells (alloc_cell c s)) = Some c.
Proof.
  intros [H1 [H2 H3]]. destruct (alloc_spec s _ _ _ (grown_put _ c _ H1) (grown_same _ _ H2) (grown_same _ _ H3)) as [Hb HR].
  exact (conj Hb (conj HR (nm_get_put_same _ _ _))).
Qed.
Lemma alloc_arr_spec a s : hb s -> hb (alloc_arr a s) /\ grows s (alloc_arr a s) /\ nm_get (s_next s) (s_arrs (alloc_arr a s)) = Some a.
Proof.
  intros [H1 [H2 H3]]. destruct (alloc_spec s _ _ _ (grown_same _ _ H1) (grown_put _ a _ H2) (grown_same _ _ H3)) as [Hb HR].
  exact (conj Hb (conj HR (nm_get_put_same _ _ _))).
Qed.
Lemma alloc_ctx_spec c s : hb s -> hb (alloc_ctx c s) /\ grows s (alloc_ctx c s) /\ nm_get (s_next s) (s_ctxs (alloc_ctx c s)) = Some c.
Proof.
  intros [H1 [H2 H3]]. destruct (alloc_spec s _ _ _ (grown_same _ _ H1) (grown_same _ _ H2) (grown_put _ c _ H3)) as [Hb HR].
  exact (conj Hb (conj HR (nm_get_put_same _ _ _))).
Qed.

Lemma fresh_put_cell {B} c (k : N -> M B) s : (id <- fresh ;; put_cell id c ;;; k id) s = k (s_next s) (alloc_cell c s).
Proof. reflexivity. Qed.
Lemma fresh_put_arr {B} a (k : N -> M B) s : (id <- fresh ;; put_arr id a ;;; k id) s = k (s_next s) (alloc_arr a s).
Proof. reflexivity. Qed.
Lemma fresh_put_ctx {B} c (k : N -> M B) s : (id <- fresh ;; put_ctx id c ;;; k id) s = k (s_next s) (alloc_ctx c s).
Proof. reflexivity. Qed.

(* P holds between the steps; what a step establishes for good of an element and its result holds at the end *)
Lemma mapM_inv {A B} n (f : A -> M B) (P : st -> Prop) (Phi : A -> B -> st -> N -> Prop) :
  (forall x s1 y s2, P s1 -> f x s1 = (Ok y, s2) -> P s2 /\ grows s1 s2 /\ closed n (Phi x y) s2) ->
  forall l s ys s', P s -> mapM f l s = (Ok ys, s') -> P s' /\ grows s s' /\ Forall2 (fun x y => closed n (Phi x y) s') l ys.
Proof.
  intros Step. induction l as [|x r IH]; intros s ys s' HP E.
  - inversion E; subst. split; [exact HP|]. split; [apply grows_refl|constructor].
  - cbn [mapM] in E. apply bind_inv in E. destruct E as [y [s1 [E1 E]]].
    apply bind_inv in E. destruct E as [yr [s2 [E2 E]]]. inversion E; subst. clear E.
    destruct (Step x s y s1 HP E1) as [P1 [R1 Q1]]. destruct (IH s1 yr s' P1 E2) as [P2 [R2 F2]].
    split; [exact P2|]. split; [eapply grows_trans; eauto|]. constructor; [|exact F2].
    intros s'' b' K. apply Q1. exact (keeps_trans n n n _ _ _ (N.le_refl n) (N.le_refl n) (ext_keeps n _ _ (proj1 R2)) K).
Qed.

(* p' in s' is a copy of p in s: nothing is lost, p' has the value of p and all its storage is new, for good *)
Definition copied_ok (s : st) (p : payload) (s' : st) (p' : payload) : Prop :=
  hb s' /\ grows s s' /\ closed (s_next s) (fun s'' b' => forall g, shown (view g s) (view g s'') p p' /\ above b' g s'' p') s'.
Definition copy_val_ok (f : nat) : Prop := forall p s p' s', copy_val f p s = (Ok p', s') -> hb s -> copied_ok s p s' p'.

Section Copies.
(* s0 is the state in which the copy of a record began, b an identifier that did not exist in s0 *)
Variables (b : N) (s0 : st).

Definition cell_copy {T} (mk mk' : cell -> tree -> T) (src dst : N) (s : st) (b' : N) : Prop :=
  forall g, shown (view_cell mk (view g s0) s0) (view_cell mk' (view g s) s) src dst /\ cell_above b' (above b' g s) s dst.
Definition arr_copy (na na' : str * N) (s : st) (b' : N) : Prop :=
  forall g, shown (view_arr (view g s0) s0) (view_arr (view g s) s) na na' /\ arr_above b' (above b' g s) s (snd na').

Definition loop_inv (s : st) : Prop := hb s /\ ext s0 s /\ b <= s_next s.
Lemma loop_alloc s1 sb s2 : loop_inv s1 -> grows s1 sb -> hb s2 -> grows sb s2 -> loop_inv s2 /\ grows s1 s2.
Proof.
  intros [_ [He Hn]] R1 Hb R2. pose proof (grows_trans _ _ _ R1 R2) as RR. split; [|exact RR]. destruct RR as [He' [_ L]].
  split; [exact Hb|]. split; [eapply ext_trans; eauto|lia].
Qed.

(* one statement for the loop over the fields of the record and for the loop over the elements of one of its array fields:
   src and dst say where the identifiers of the two cells are in an entry of the list and in the result, mk and mk' what
   view reports of the two; the new cell has the CONSTANT flag of the old if keep *)
Lemma copy_cells {X B T} f (Hf : copy_val_ok f) (owner : N) (keep : bool) (src : X -> N) (k : X -> N -> B) (dst : B -> N)
    (mk : X -> cell -> tree -> T) (mk' : B -> cell -> tree -> T) :
  (forall x n, dst (k x n) = n) ->
  (forall x n cl v t, mk' (k x n) (mkCell (c_name cl) (c_type cl) (if keep then c_const cl else false) owner v) t = mk x cl t) ->
  forall l s ys s', loop_inv s ->
  mapM (fun x => cl <- get_cell (src x) ;; v' <- copy_val f (c_val cl) ;; nid <- fresh ;;
                 put_cell nid (mkCell (c_name cl) (c_type cl) (if keep then c_const cl else false) owner v') ;;; ret (k x nid)) l s = (Ok ys, s') ->
  loop_inv s' /\ grows s s' /\ Forall2 (fun x y => closed b (cell_copy (mk x) (mk' y) (src x) (dst y)) s') l ys.
Proof.
  intros Hdst Hmk. apply mapM_inv. intros x s1 y s2 HP E. pose proof HP as [Hb [He Hn]].
  apply bind_inv in E. destruct E as [cl [sa [E1 E]]]. apply get_cell_inv in E1. destruct E1 as [-> Ecl].
  apply bind_inv in E. destruct E as [v' [sb [E2 E]]]. destruct (Hf _ _ _ _ E2 Hb) as [Hb2 [R2 C2]].
  rewrite fresh_put_cell in E. inversion E; subst y s2. clear E. set (newc := mkCell _ _ _ _ _).
  destruct (alloc_cell_spec newc sb Hb2) as [Hb3 [R3 G3]]. destruct (loop_alloc _ _ _ HP R2 Hb3 R3) as [HP3 RR].
  split; [exact HP3|]. split; [exact RR|]. rewrite Hdst. intros s' b' K Hb' g.
  assert (Hd : b <= s_next sb) by (destruct R2 as [_ [_ L]]; lia). apply (proj1 K) in G3; [|exact Hd].
  destruct (C2 s' b' (keeps_trans _ _ _ _ _ _ (N.le_refl _) Hn (ext_keeps _ _ _ (proj1 R3)) K) ltac:(lia) g) as [V A]. split.
  - apply view_cell_transport. intros cl0 Hcl0. apply He in Hcl0. rewrite Ecl in Hcl0. injection Hcl0 as <-.
    exists newc. split; [exact G3|]. intros t Ht. split; [|apply Hmk]. apply V, (view_ext g s0), Ht. exact He.
  - split; [lia|]. exists newc. split; [exact G3|exact A].
Qed.
End Copies.

Definition copy_ctx_ok (f : nat) : Prop := forall c s c' s', copy_ctx f c s = (Ok c', s') -> hb s ->
  forall tn, copied_ok s (PRec tn c) s' (PRec tn c').

Lemma copy_val_ok_intro f :
  (forall tn c s p' s', copy_val f (PRec tn c) s = (Ok p', s') -> hb s -> copied_ok s (PRec tn c) s' p') -> copy_val_ok f.
Proof.
  intros H p s p' s' E Hb. destruct p as [| | | | | | | |tn c]; [..|exact (H _ _ _ _ _ E Hb)];
    (rewrite copy_val_non_record in E by (intros ? ?; discriminate); inversion E; subst p' s'; split; [exact Hb|]; split; [apply grows_refl|]; intros s'' b' _ _ g;
     destruct g; (split; [intros t Ht; exact Ht|exact I])).
Qed.

Theorem copy_ok : forall f, copy_val_ok f /\ copy_ctx_ok f.
Proof.
  induction f as [|f [IHv IHc]].
  - split; [apply copy_val_ok_intro; intros tn c s p' s' E|intros c s c' s' E]; discriminate E.
  - split.
    + apply copy_val_ok_intro. intros tn c s p' s' E Hb.
      cbn [copy_val] in E. apply bind_inv in E. destruct E as [c' [s1 [E1 E]]]. inversion E; subst p' s1. exact (IHc _ _ _ _ E1 Hb tn).
    + intros c s0 c' s' E Hb0 tn. cbn [copy_ctx] in E.
      apply bind_inv in E. destruct E as [cx [sa [E1 E]]]. apply get_ctx_inv in E1. destruct E1 as [-> Ecx].
      rewrite fresh_put_ctx in E. destruct (alloc_ctx_spec (blank_ctx_like cx) s0 Hb0) as [HbB [RB _]].
      set (b := s_next s0) in *. set (b1 := N.succ b). assert (Hb1 : b <= b1) by apply N.le_succ_diag_r.
      assert (PB : loop_inv b1 s0 (alloc_ctx (blank_ctx_like cx) s0)) by exact (conj HbB (conj (proj1 RB) (N.le_refl _))).
      apply bind_inv in E. destruct E as [vars' [s2 [Ev E]]].
      apply (copy_cells b1 s0 f IHv b true snd (fun nv n => (fst nv, n)) snd (fun nv => field_of (fst nv)) (fun y => field_of (fst y))
               (fun _ _ => eq_refl) (fun _ _ _ _ _ => eq_refl) _ _ _ _ PB) in Ev. destruct Ev as [P2 [R2 Fv]].
      apply bind_inv in E. destruct E as [arrs' [s3 [Ea E]]].
      apply (mapM_inv b1 _ (loop_inv b1 s0) (arr_copy s0)) in Ea; [| |exact P2].
      2:{ intros na sx y sy HP X. apply bind_inv in X. destruct X as [a [sa [X1 X]]]. apply get_arr_inv in X1. destruct X1 as [-> Earr].
          apply bind_inv in X. destruct X as [elems' [sb [X2 X]]].
          apply (copy_cells b1 s0 f IHv b false (fun e => e) (fun _ n => n) (fun e => e) (fun _ => elem_of) (fun _ => elem_of)
                   (fun _ _ => eq_refl) (fun _ _ _ _ _ => eq_refl) _ _ _ _ HP) in X2. destruct X2 as [HPb [Rb Fe]].
          rewrite fresh_put_arr in X. inversion X; subst y sy. clear X. set (newa := mkArr _ _ _ _).
          destruct (alloc_arr_spec newa sb (proj1 HPb)) as [Hb4 [R4 G4]]. destruct (loop_alloc _ _ _ _ _ HP Rb Hb4 R4) as [HP4 RR].
          split; [exact HP4|]. split; [exact RR|]. intros s'' b' K Hb' g. apply (proj1 (proj2 K)) in G4; [|apply HPb].
          pose proof (keeps_trans b1 b1 b1 _ _ _ (N.le_refl b1) (N.le_refl b1) (ext_keeps b1 _ _ (proj1 R4)) K) as K'. split.
          - apply view_arr_transport; [reflexivity|]. intros a0 Ha0. apply HP in Ha0. rewrite Earr in Ha0. injection Ha0 as <-.
            exists newa. split; [exact G4|]. repeat split. eapply Forall2_impl; [|exact Fe]. intros e e' C. apply (C s'' b' K' Hb' g).
          - split; [apply (N.le_trans _ b1); [exact Hb'|apply HPb]|]. exists newa. split; [exact G4|].
            eapply Forall2_Forall_r; [exact Fe|]. intros e e' C. apply (C s'' b' K' Hb' g). }
      destruct Ea as [[Hb3 [He3 Hn3]] [R3 Fa]].
      apply bind_inv in E. destruct E as [u [s4 [Eu E]]]. inversion E; subst c' s4. clear E.
      apply upd_ctx_spec in Eu. destruct Eu as [k [_ ->]]. set (sF := set_ctxs _ s3).
      assert (KF : keeps_from b1 s3 sF).
      { split; [auto|]. split; [auto|]. intros id x Hid. cbn. rewrite nm_get_put_other; [auto|]. unfold b1 in Hid. lia. }
      pose proof (grows_trans _ _ _ RB (grows_trans _ _ _ R2 R3)) as [[X1 [X2 X3]] [Y Z]].
      split; [|split].
      * destruct Hb3 as [Y1 [Y2 Y3]]. refine (conj Y1 (conj Y2 (nm_below_put _ _ _ _ Y3 _))). unfold b1 in Hn3. lia.
      * split; [|exact (conj Y Z)]. refine (conj X1 (conj X2 (nm_incl_put _ _ _ _ X3 _))). apply (nm_below_none _ _ _ (proj2 (proj2 Hb0))), N.le_refl.
      * (* the record of the copy: its own context is b, everything under it lies from b1 upwards *)
        intros s'' b' K Hb'. pose proof (keeps_trans b1 b1 b _ _ _ (N.le_refl _) Hb1 KF K) as K3.
        pose proof (keeps_trans b1 b1 b1 _ _ _ (N.le_refl _) (N.le_refl _) (ext_keeps b1 _ _ (proj1 R3)) K3) as K2.
        assert (GF : nm_get b (s_ctxs s'') = Some (ctx_with_arrs arrs' (ctx_with_vars vars' k))) by (apply K; [apply N.le_refl|apply nm_get_put_same]).
        assert (L : b' <= b1) by lia. intros [|g]; [split; [discriminate|exact I]|]. split.
        -- apply view_rec_transport. intros cx0 Ecx0. rewrite Ecx in Ecx0. injection Ecx0 as <-.
           eexists. split; [exact GF|]. split; (eapply Forall2_impl; [|eassumption]); intros x y C; [apply (C s'' b' K2 L g)|apply (C s'' b' K3 L g)].
        -- cbn [above]. split; [exact Hb'|]. eexists. split; [exact GF|].
           split; (eapply Forall2_Forall_r; [eassumption|]); intros x y C; [apply (C s'' b' K2 L g)|apply (C s'' b' K3 L g)].
Qed.

Theorem copy_is_deep fuel p s p' s' : copy_val fuel p s = (Ok p', s') -> hb s ->
  (forall g t, view g s p = Some t -> view g s' p' = Some t /\ view g s' p = Some t) /\
  ext s s' /\ same_rest s s' /\ hb s' /\ (forall g, above (s_next s) g s' p').
Proof.
  intros E Hb. destruct (proj1 (copy_ok fuel) p s p' s' E Hb) as [H1 [[H2 [H3 _]] C]].
  pose proof (fun g => C s' (s_next s) (ext_keeps _ _ _ (ext_refl s')) (N.le_refl _) g) as C'.
  split; [|split; [exact H2|split; [exact H3|split; [exact H1|intros g; apply C']]]].
  intros g t Hv. split; [apply (C' g), Hv|exact (view_ext _ _ _ _ _ H2 Hv)].
Qed.

(* after the copy, writes to storage that existed before it do not show in the copy ... *)
Theorem copy_independent_of_source fuel p s p' s' s2 g : copy_val fuel p s = (Ok p', s') -> hb s ->
  agree_from (s_next s) s' s2 -> view g s2 p' = view g s' p'.
Proof.
  intros E Hb Ha. destruct (copy_is_deep fuel p s p' s' E Hb) as [_ [_ [_ [_ A]]]]. apply (view_agree_from g (s_next s)); [exact Ha|apply A].
Qed.

(* ... and writes to storage created by the copy or later do not show in the source *)
Theorem source_independent_of_copy fuel p s p' s' s2 g t : copy_val fuel p s = (Ok p', s') -> hb s ->
  (forall id, id < s_next s -> nm_get id (s_cells s2) = nm_get id (s_cells s') /\ nm_get id (s_arrs s2) = nm_get id (s_arrs s') /\
                               nm_get id (s_ctxs s2) = nm_get id (s_ctxs s')) ->
  view g s p = Some t -> view g s2 p = Some t.
Proof.
  intros E Hb Hlow Hv. destruct (copy_is_deep fuel p s p' s' E Hb) as [_ [[E1 [E2 E3]] _]].
  eapply view_ext; [|exact Hv]. destruct Hb as [B1 [B2 B3]]. split; [|split]; intros id x Hx.
  - destruct (Hlow id (B1 _ _ Hx)) as [-> _]. apply E1. exact Hx.
  - destruct (Hlow id (B2 _ _ Hx)) as [_ [-> _]]. apply E2. exact Hx.
  - destruct (Hlow id (B3 _ _ Hx)) as [_ [_ ->]]. apply E3. exact Hx.
Qed.

(* the counter of the initial state is 2: the global context has identifier root_id = 1 *)
Lemma hb_init stdin fs rnd : hb (init_state stdin fs rnd).
Proof. exact (conj (nm_below_empty _) (conj (nm_below_empty _) (nm_below_put 2 root_id _ _ (nm_below_empty _) eq_refl))). Qed.

(* a state with a record T { x : INTEGER, inner : I { s : STRING }, v : ARRAY[1:2] OF INTEGER }, built by allocation
   (mkCtx takes parent, name, variables, arrays, three more tables, is-a-function, is-a-record, return type, return value,
   switch value and the depth of the parent chain; the comments on the right give the identifier each allocation uses) *)
Definition ex_state : st :=
  let s0 := init_state [] [] [] in                                                      (* next = 2 *)
  let rc := mkCtx (Some 1) (str_of_string "T") [(str_of_string "x", 3); (str_of_string "inner", 5)] [(str_of_string "v", 8)] [] [] [] false true dt_none None None 1 in
  let s1 := alloc_ctx rc s0 in                                                          (* 2 *)
  let s2 := alloc_cell (mkCell (str_of_string "x") (dt_prim KInt) false 2 (PInt 7)) s1 in  (* 3 *)
  let ic := mkCtx (Some 2) (str_of_string "I") [(str_of_string "s", 6)] [] [] [] [] false true dt_none None None 2 in
  let s3 := alloc_ctx ic s2 in                                                          (* 4 *)
  let s4 := alloc_cell (mkCell (str_of_string "inner") (mkDT KRec (Some (str_of_string "I"))) false 2 (PRec (str_of_string "I") 4)) s3 in (* 5 *)
  let s5 := alloc_cell (mkCell (str_of_string "s") (dt_prim KStr) false 4 (PStr (str_of_string "ab"))) s4 in  (* 6 *)
  let s6 := alloc_cell (mkCell (str_of_string "v") (dt_prim KInt) false 2 (PInt 1)) s5 in  (* 7 *)
  let s7 := alloc_arr (mkArr (str_of_string "v") (dt_prim KInt) [(1, 2)%Z] [7; 9]) s6 in  (* 8 *)
  alloc_cell (mkCell (str_of_string "v") (dt_prim KInt) false 2 (PInt 2)) s7.               (* 9 *)
Lemma hb_ex_state : hb ex_state.
Proof.
  unfold ex_state. cbv zeta.
  apply alloc_cell_spec, alloc_arr_spec, alloc_cell_spec, alloc_cell_spec, alloc_cell_spec, alloc_ctx_spec, alloc_cell_spec, alloc_ctx_spec, hb_init.
Qed.
Example copy_example :
  match copy_val 8 (PRec (str_of_string "T") 2) ex_state with
  | (Ok (PRec _ c'), s') =>
    N.eqb c' 10 &&
    match view 4 ex_state (PRec (str_of_string "T") 2), view 4 s' (PRec (str_of_string "T") c') with
    | Some (TRec _ [_; (_, _, _, _, TRec _ [_] []) ] [(_, _, _, _, [_; _])]), Some _ => true
    | _, _ => false
    end
  | _ => false
  end = true.
Proof. vm_compute. reflexivity. Qed.
