(* Lemmas_FileStates.v -- the handle state machine of the file statements: a statement used in a state in which it is
   not legal is a runtime error that leaves the WHOLE state (every file's contents, every handle, every variable, the
   output) exactly as it was.  Stated for statements whose file name is a string literal, in every state and context. *)
From PE2 Require Import Eval Lemmas_Store.
Local Open Scope N_scope.

Section Illegal.
Variables (ped repl : bool) (lim : limits) (fuel : nat).
Notation ev := (ev_eval (evs_at ped repl lim (S (S fuel)))).

Theorem readfile_needs_a_read_handle t name id c s :
  (find_file (tval name) (s_files s) = None \/ exists fh, find_file (tval name) (s_files s) = Some fh /\ of_mode fh <> FRead) ->
  exists f, ev (NReadFile t (NStr name) id) c s = (Fail f, s).
Proof.
  intros H. rewrite eval_S. cbn [eval_body]. rewrite (file_name_first eval_NStr).
  destruct H as [H|[fh [H M]]]; rewrite H; [apply rt_error_pure|]. destruct (of_mode fh); try apply rt_error_pure. congruence.
Qed.

Theorem writefile_needs_a_write_or_append_handle t name d c s :
  (find_file (tval name) (s_files s) = None \/ exists fh, find_file (tval name) (s_files s) = Some fh /\ (of_mode fh = FRead \/ of_mode fh = FRandom)) ->
  exists f, ev (NWriteFile t (NStr name) d) c s = (Fail f, s).
Proof.
  intros H. rewrite eval_S. cbn [eval_body]. rewrite (file_name_first eval_NStr).
  destruct H as [H|[fh [H [M|M]]]]; rewrite H; [apply rt_error_pure| |]; rewrite M; apply rt_error_pure.
Qed.

Theorem closefile_needs_an_open_handle t name c s :
  find_file (tval name) (s_files s) = None -> exists f, ev (NCloseFile t (NStr name)) c s = (Fail f, s).
Proof. intros H. rewrite eval_S. cbn [eval_body]. rewrite (file_name_first eval_NStr), H. apply rt_error_pure. Qed.

Theorem openfile_needs_a_closed_name t name mode c s fh :
  find_file (tval name) (s_files s) = Some fh -> exists f, ev (NOpenFile t (NStr name) mode) c s = (Fail f, s).
Proof. intros H. rewrite eval_S. cbn [eval_body]. rewrite (file_name_first eval_NStr), H. apply rt_error_pure. Qed.

Theorem getrecord_needs_a_random_handle t name id c s :
  (find_file (tval name) (s_files s) = None \/ exists fh, find_file (tval name) (s_files s) = Some fh /\ of_mode fh <> FRandom) ->
  exists f, ev (NGetRecord t (NStr name) id) c s = (Fail f, s).
Proof.
  intros H. rewrite eval_S. cbn [eval_body]. rewrite (file_name_first eval_NStr).
  destruct H as [H|[fh [H M]]]; rewrite H; [apply rt_error_pure|]. destruct (of_mode fh); try apply rt_error_pure. congruence.
Qed.

Theorem putrecord_needs_a_random_handle t name id c s :
  (find_file (tval name) (s_files s) = None \/ exists fh, find_file (tval name) (s_files s) = Some fh /\ of_mode fh <> FRandom) ->
  exists f, ev (NPutRecord t (NStr name) id) c s = (Fail f, s).
Proof.
  intros H. rewrite eval_S. cbn [eval_body]. rewrite (file_name_first eval_NStr).
  destruct H as [H|[fh [H M]]]; rewrite H; [apply rt_error_pure|]. destruct (of_mode fh); try apply rt_error_pure. congruence.
Qed.

(* SEEK: the address is evaluated first; for any address expression that yields an INTEGER >= 1 without touching the state *)
Theorem seek_needs_a_random_handle t name a c s ar addr :
  ev_eval (evs_at ped repl lim (S fuel)) a c s = (Ok ar, s) -> dk (r_type ar) = KInt -> r_val ar = Some (PInt addr) -> (1 <= addr)%Z ->
  (find_file (tval name) (s_files s) = None \/ exists fh, find_file (tval name) (s_files s) = Some fh /\ (of_mode fh <> FRandom \/ rf_seek fh addr = None)) ->
  exists f, ev (NSeek t (NStr name) a) c s = (Fail f, s).
Proof.
  intros Ea Hk Hv Hpos H. rewrite eval_S. cbn [eval_body]. rewrite (address_first Ea Hk Hv Hpos), (file_name_first eval_NStr).
  destruct H as [H|[fh [H M]]]; rewrite H; [apply rt_error_pure|]. destruct (of_mode fh) eqn:Em; try apply rt_error_pure.
  destruct M as [M|M]; [congruence|]. rewrite M. apply rt_error_pure.
Qed.
End Illegal.
