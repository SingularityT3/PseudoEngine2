(* Lemmas_Builtins.v — the string functions LEFT, RIGHT, MID (when they answer and with what), ASC/CHR, the case maps, IS_NUM. *)
From PE2 Require Import Builtins.
Local Open Scope Z_scope.

Lemma slen_nonneg s : 0 <= slen s.
Proof. unfold slen. lia. Qed.

(* LEFT and RIGHT answer under the same test: a count from 0 to the length *)
Lemma counted_some {A} n len (x : A) : 0 <= n <= len -> (if n <? 0 then None else if len <? n then None else Some x) = Some x.
Proof. intros H. destruct (n <? 0) eqn:E1; [lia|]. destruct (len <? n) eqn:E2; [lia|]. reflexivity. Qed.
Lemma counted_none {A} n len (x : A) : (n < 0 \/ len < n) <-> (if n <? 0 then None else if len <? n then None else Some x) = None.
Proof.
  destruct (n <? 0) eqn:E1; [split; [reflexivity|lia]|].
  destruct (len <? n) eqn:E2; split; intros; try reflexivity; try discriminate; lia.
Qed.

Lemma bi_left_some s n : 0 <= n <= slen s -> bi_left s n = Some (firstn (Z.to_nat n) s).
Proof. apply counted_some. Qed.
Lemma bi_right_some s n : 0 <= n <= slen s -> bi_right s n = Some (skipn (Z.to_nat (slen s - n)) s).
Proof. apply counted_some. Qed.
Lemma bi_left_error s n : (n < 0 \/ slen s < n) <-> bi_left s n = None.
Proof. apply counted_none. Qed.
Lemma bi_right_error s n : (n < 0 \/ slen s < n) <-> bi_right s n = None.
Proof. apply counted_none. Qed.

Lemma left_right_concat s n l r :
  0 <= n <= slen s -> bi_left s n = Some l -> bi_right s (slen s - n) = Some r -> l ++ r = s.
Proof.
  intros H Hl Hr. rewrite bi_left_some in Hl by lia. rewrite bi_right_some in Hr by lia.
  inversion Hl; inversion Hr; subst. replace (slen s - (slen s - n)) with n by lia. apply firstn_skipn.
Qed.

Lemma bi_mid_some s i n :
  1 <= i -> 0 <= n -> i <= slen s -> i - 1 + n <= slen s ->
  bi_mid s i n = Some (firstn (Z.to_nat n) (skipn (Z.to_nat (i - 1)) s)).
Proof.
  intros H1 H2 H3 H4. unfold bi_mid.
  destruct (i - 1 <? 0) eqn:E1; [lia|]. destruct (slen s <=? i - 1) eqn:E2; [lia|].
  destruct (n <? 0) eqn:E3; [lia|]. destruct (slen s <? n + (i - 1)) eqn:E4; [lia|]. reflexivity.
Qed.

Lemma bi_mid_error s i n :
  (i < 1 \/ slen s < i \/ n < 0 \/ slen s < i - 1 + n) <-> bi_mid s i n = None.
Proof.
  unfold bi_mid.
  destruct (i - 1 <? 0) eqn:E1; [split; [reflexivity|lia]|].
  destruct (slen s <=? i - 1) eqn:E2; [split; [reflexivity|lia]|].
  destruct (n <? 0) eqn:E3; [split; [reflexivity|lia]|].
  destruct (slen s <? n + (i - 1)) eqn:E4; split; intros; try reflexivity; try discriminate; lia.
Qed.

(* the substring functions never look outside the string: results are sublists of bounded length *)
Lemma bi_mid_length s i n r : bi_mid s i n = Some r -> slen r = n.
Proof.
  intros H. assert (G : ~ (i < 1 \/ slen s < i \/ n < 0 \/ slen s < i - 1 + n)) by (rewrite bi_mid_error, H; discriminate).
  rewrite bi_mid_some in H by lia. inversion H. unfold slen in *. rewrite firstn_length, skipn_length. lia.
Qed.

(* character functions: a code below 256 is the code of its character *)
Lemma zcode_ascii_of_z n : zcode (ascii_of_z n) = n mod 256.
Proof.
  unfold zcode, ascii_of_z. pose proof (Z.mod_pos_bound n 256 ltac:(lia)).
  rewrite N_ascii_embedding by lia. lia.
Qed.

Lemma asc_chr n : 0 <= n <= 127 -> bi_asc (bi_chr n) = n.
Proof.
  intros H. unfold bi_asc, bi_chr, schar_of_ascii. cbv zeta. rewrite zcode_ascii_of_z, Z.mod_small by lia.
  destruct (n <? 128) eqn:E; lia.
Qed.

Definition upper_spec (n : Z) : Z := if (97 <=? n) && (n <=? 122) then n - 32 else n.
Definition lower_spec (n : Z) : Z := if (65 <=? n) && (n <=? 90) then n + 32 else n.
Lemma case_maps n : 0 <= n <= 255 ->
  zcode (to_upper (ascii_of_z n)) = upper_spec n /\ zcode (to_lower (ascii_of_z n)) = lower_spec n.
Proof.
  intros H. assert (E : zcode (ascii_of_z n) = n) by (rewrite zcode_ascii_of_z; apply Z.mod_small; lia).
  unfold to_upper, to_lower, is_lower, is_upper, upper_spec, lower_spec. cbv zeta. rewrite E.
  split; destruct (_ && _) eqn:G; try exact E; rewrite zcode_ascii_of_z; apply Z.mod_small; lia.
Qed.

(* IS_NUM accepts every digit string with at most one point *)
Fixpoint count_points (s : str) : nat :=
  match s with [] => O | c :: r => ((if aeqb c "."%char then 1%nat else 0%nat) + count_points r)%nat end.
Definition numeral_chars (s : str) : Prop := Forall (fun c => is_digit c = true \/ c = "."%char) s.

Lemma is_num_aux_accepts (s : str) (d : bool) : numeral_chars s -> (count_points s + (if d then 1%nat else 0%nat) <= 1)%nat -> is_num_aux s d = true.
Proof.
  revert d; induction s as [|c r IH]; intros d H P; [reflexivity|].
  inversion H as [|? ? Hc Hr]; subst. cbn [is_num_aux count_points] in *.
  destruct (aeqb c "."%char) eqn:E.
  - destruct d; [lia|]. apply IH; [exact Hr|]. lia.
  - destruct Hc as [Hc|Hc]; [rewrite Hc; apply IH; [exact Hr|lia]|].
    subst c. cbn in E. discriminate.
Qed.

Lemma is_num_accepts s : numeral_chars s -> (count_points s <= 1)%nat -> bi_is_num s = true.
Proof. intros H P. apply is_num_aux_accepts; [exact H|lia]. Qed.
