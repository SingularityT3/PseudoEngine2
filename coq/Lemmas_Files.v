(* Lemmas_Files.v — random files (C14): SEEK, PUTRECORD and GETRECORD on a handle, and any history of them against a list-and-cursor
   specification; text files (C15): the read loop delivers exactly the lines, EOF is exact. *)
From PE2 Require Import Files Lemmas_Arrays.
From Coq Require Import ZifyBool.
Local Open Scope Z_scope.

Definition nrecs (f : ofile) : Z := Z.of_nat (List.length (of_recs f)).
Definition cursor (f : ofile) : Z := of_ptr f + 1.          (* the 1-based address the handle points at *)
Definition handle_ok (f : ofile) : Prop := 1 <= cursor f <= nrecs f + 1.

(* SEEK accepts exactly the addresses 1..n+1, moves the cursor there and changes nothing else *)
Lemma rf_seek_spec f k : rf_seek f k =
  if (1 <=? k) && (k <=? nrecs f + 1)
  then Some (mkOfile (of_name f) (of_mode f) (of_rest f) (of_recs f) (k - 1) (of_modified f)) else None.
Proof. unfold rf_seek, nrecs. destruct (_ || _) eqn:E, (_ && _) eqn:E2; try reflexivity; lia. Qed.

Lemma seek_exact f k : (exists f', rf_seek f k = Some f') <-> 1 <= k <= nrecs f + 1.
Proof.
  rewrite rf_seek_spec. destruct (_ && _) eqn:E; split; [lia|eauto|intros [f' H]; discriminate|lia].
Qed.
Lemma seek_effect f k f' : rf_seek f k = Some f' -> cursor f' = k /\ of_recs f' = of_recs f /\ handle_ok f'.
Proof.
  rewrite rf_seek_spec. destruct (_ && _) eqn:E; [|discriminate]. intros [= <-].
  unfold handle_ok, cursor, nrecs in *. cbn [of_ptr of_recs]. repeat split; lia.
Qed.

Lemma set_nth_str_is_set_nth l i v : set_nth_str l i v = set_nth l i v.
Proof. revert i; induction l as [|x r IH]; intros i; cbn; [reflexivity|]. destruct (i =? 0); [reflexivity|]. f_equal. apply IH. Qed.

Lemma set_nth_length {A} (l : list A) i v : List.length (set_nth l i v) = List.length l.
Proof. revert i; induction l as [|x r IH]; intros i; cbn; [reflexivity|]. destruct (i =? 0); cbn; [reflexivity|]. f_equal. apply IH. Qed.

Lemma nth_z_of_nat {A} (l : list A) : forall k, nth_z l (Z.of_nat k) = nth_error l k.
Proof.
  induction l as [|x r IH]; intros [|k]; try reflexivity. cbn [nth_z nth_error]. rewrite <- IH.
  replace (Z.of_nat (S k) - 1) with (Z.of_nat k) by lia. destruct (_ =? 0) eqn:E; [lia|]. destruct (_ <? 0) eqn:E2; [lia|reflexivity].
Qed.

(* PUTRECORD at k <= n replaces record k, at n+1 appends; every other record is unchanged *)
Lemma rf_put_recs f txt : handle_ok f ->
  of_recs (rf_put f txt) = if cursor f <=? nrecs f then set_nth (of_recs f) (of_ptr f) txt else of_recs f ++ [txt].
Proof.
  unfold handle_ok, cursor, nrecs, rf_put. intros H. cbn [of_recs]. rewrite set_nth_str_is_set_nth.
  destruct (of_ptr f =? _) eqn:E, (of_ptr f + 1 <=? _) eqn:E2; try reflexivity; lia.
Qed.

Lemma put_replace f txt : handle_ok f -> cursor f <= nrecs f ->
  nrecs (rf_put f txt) = nrecs f /\ nth_z (of_recs (rf_put f txt)) (of_ptr f) = Some txt /\
  (forall j, j <> of_ptr f -> nth_z (of_recs (rf_put f txt)) j = nth_z (of_recs f) j) /\ cursor (rf_put f txt) = cursor f.
Proof.
  intros H1 H2. pose proof (rf_put_recs f txt H1) as R. destruct (cursor f <=? nrecs f) eqn:E; [|lia].
  unfold handle_ok, cursor, nrecs in *. rewrite R, set_nth_length. repeat split.
  - apply nth_z_set_same. lia.
  - intros j Hj. apply nth_z_set_other. lia.
Qed.
Lemma put_append f txt : handle_ok f -> cursor f = nrecs f + 1 ->
  nrecs (rf_put f txt) = nrecs f + 1 /\ nth_z (of_recs (rf_put f txt)) (of_ptr f) = Some txt /\
  (forall j, 0 <= j < nrecs f -> nth_z (of_recs (rf_put f txt)) j = nth_z (of_recs f) j) /\ cursor (rf_put f txt) = cursor f.
Proof.
  intros H1 H2. pose proof (rf_put_recs f txt H1) as R. destruct (cursor f <=? nrecs f) eqn:E; [lia|].
  unfold handle_ok, cursor, nrecs in *. rewrite R, app_length. cbn [List.length]. repeat split.
  - lia.
  - replace (of_ptr f) with (Z.of_nat (List.length (of_recs f))) by lia.
    rewrite nth_z_of_nat, nth_error_app2, Nat.sub_diag by lia. reflexivity.
  - intros j Hj. rewrite <- (Z2Nat.id j), !nth_z_of_nat by lia. apply nth_error_app1. lia.
Qed.
Lemma put_keeps_handle_ok f txt : handle_ok f -> handle_ok (rf_put f txt).
Proof.
  intros H. pose proof (rf_put_recs f txt H) as R. unfold handle_ok, nrecs in *. change (cursor (rf_put f txt)) with (cursor f).
  rewrite R. destruct (_ <=? _); [rewrite set_nth_length|rewrite app_length; cbn [List.length]]; lia.
Qed.

(* GETRECORD at n+1 (or on an empty file) is an error; below that it returns the addressed record *)
Lemma get_at_end_error f : cursor f = nrecs f + 1 -> rf_get f = None.
Proof.
  unfold cursor, nrecs, rf_get. intros H. replace (of_ptr f) with (Z.of_nat (List.length (of_recs f))) by lia.
  rewrite nth_z_of_nat. apply nth_error_None. lia.
Qed.
Lemma get_in_range f : handle_ok f -> cursor f <= nrecs f -> exists r, rf_get f = Some r.
Proof. unfold handle_ok, cursor, nrecs, rf_get. intros H1 H2. apply nth_z_in_range. lia. Qed.

(* ---- refinement: any history of SEEK / PUT / GET on a handle behaves like the list + cursor spec ---- *)
Inductive rfop := OSeek (k : Z) | OPut (txt : str) | OGet.
Inductive rfout := RUnit | RErr | RVal (v : str).

Definition impl_step (f : ofile) (o : rfop) : ofile * rfout :=
  match o with
  | OSeek k => match rf_seek f k with Some f' => (f', RUnit) | None => (f, RErr) end
  | OPut txt => (rf_put f txt, RUnit)
  | OGet => match rf_get f with Some v => (f, RVal v) | None => (f, RErr) end
  end.

(* the spec: a list of records and a 1-based cursor *)
Definition spec := (list str * Z)%type.
Definition spec_step (sp : spec) (o : rfop) : spec * rfout :=
  let '(recs, cur) := sp in
  let n := Z.of_nat (List.length recs) in
  match o with
  | OSeek k => if (1 <=? k) && (k <=? n + 1) then ((recs, k), RUnit) else (sp, RErr)
  | OPut txt => if cur <=? n then ((set_nth recs (cur - 1) txt, cur), RUnit) else ((recs ++ [txt], cur), RUnit)
  | OGet => match nth_z recs (cur - 1) with Some v => (sp, RVal v) | None => (sp, RErr) end
  end.
Definition abs_rf (f : ofile) : spec := (of_recs f, cursor f).

Lemma step_refines f o : handle_ok f ->
  abs_rf (fst (impl_step f o)) = fst (spec_step (abs_rf f) o) /\ snd (impl_step f o) = snd (spec_step (abs_rf f) o) /\
  handle_ok (fst (impl_step f o)).
Proof.
  intros H. destruct o as [k|txt|]; unfold impl_step, spec_step, abs_rf; cbv beta iota zeta; fold (nrecs f).
  - pose proof (seek_effect f k) as S. rewrite rf_seek_spec in *. destruct (_ && _); cbn [fst snd]; [|auto].
    destruct (S _ eq_refl) as (A & B & C). rewrite A, B. auto.
  - cbn [fst snd]. rewrite (rf_put_recs f txt H). change (cursor (rf_put f txt)) with (cursor f).
    replace (cursor f - 1) with (of_ptr f) by (unfold cursor; lia).
    pose proof (put_keeps_handle_ok f txt H). destruct (cursor f <=? nrecs f); auto.
  - unfold rf_get, cursor. rewrite Z.add_simpl_r. destruct (nth_z (of_recs f) (of_ptr f)); cbn; auto.
Qed.

Definition run_impl (f : ofile) (ops : list rfop) : ofile * list rfout :=
  fold_left (fun acc o => let '(f0, outs) := acc in let '(f1, r) := impl_step f0 o in (f1, outs ++ [r])) ops (f, []).
Definition run_spec (sp : spec) (ops : list rfop) : spec * list rfout :=
  fold_left (fun acc o => let '(s0, outs) := acc in let '(s1, r) := spec_step s0 o in (s1, outs ++ [r])) ops (sp, []).

(* the two folds are run_impl and run_spec, started on outputs outs0 already produced *)
Lemma history_refines : forall ops f outs0, handle_ok f ->
  let '(f', outs) := fold_left (fun acc o => let '(f0, outs) := acc in let '(f1, r) := impl_step f0 o in (f1, outs ++ [r])) ops (f, outs0) in
  let '(sp', outs') := fold_left (fun acc o => let '(s0, outs) := acc in let '(s1, r) := spec_step s0 o in (s1, outs ++ [r])) ops (abs_rf f, outs0) in
  abs_rf f' = sp' /\ outs = outs' /\ handle_ok f'.
Proof.
  induction ops as [|o ops IH]; intros f outs0 H; cbn [fold_left]; [auto|].
  destruct (step_refines f o H) as [A [B C]].
  destruct (impl_step f o) as [f1 r1]. destruct (spec_step (abs_rf f) o) as [s1 r1'] eqn:Es. cbn [fst snd] in *. subst.
  specialize (IH f1 (outs0 ++ [r1']) C). exact IH.
Qed.

(* ---- text files: the loop WHILE NOT EOF ... READFILE delivers exactly the lines, once each ---- *)
Definition no_nl (l : str) : Prop := Forall (fun ch => aeqb ch ch_nl = false) l.
Definition rd (content : str) : ofile := mkOfile [] FRead content [] 0 false.

(* the inner loop of file_read_line: a stretch without line break is put on the accumulator *)
Fixpoint read_to_nl (s acc : str) : str * str :=
  match s with [] => (rev acc, []) | c :: r => if aeqb c ch_nl then (rev acc, r) else read_to_nl r (c :: acc) end.
Lemma file_read_line_unfold f : file_read_line f =
  let '(l, r) := read_to_nl (of_rest f) [] in (l, mkOfile (of_name f) (of_mode f) r (of_recs f) (of_ptr f) (of_modified f)).
Proof. reflexivity. Qed.
Lemma read_to_nl_app l : no_nl l -> forall rest acc, read_to_nl (l ++ rest) acc = read_to_nl rest (rev l ++ acc).
Proof.
  induction 1 as [|ch l Hc Hl IH]; intros rest acc; [reflexivity|]. cbn [app read_to_nl rev]. rewrite Hc, IH, <- app_assoc. reflexivity.
Qed.

Lemma read_line_terminated l rest0 : no_nl l ->
  file_read_line (rd (l ++ ch_nl :: rest0)) = (l, rd rest0).
Proof.
  intros H. rewrite file_read_line_unfold. cbn [rd of_rest]. rewrite read_to_nl_app by exact H. cbn [read_to_nl].
  rewrite Ascii.eqb_refl, app_nil_r, rev_involutive. reflexivity.
Qed.

Lemma read_line_unterminated l : no_nl l -> file_read_line (rd l) = (l, rd []).
Proof.
  intros H. rewrite file_read_line_unfold. cbn [rd of_rest]. pose proof (read_to_nl_app l H [] []) as R.
  rewrite !app_nil_r in R. cbn [read_to_nl] in R. rewrite R, rev_involutive. reflexivity.
Qed.

Definition text_of_lines (ls : list str) : str := List.concat (map (fun l => l ++ [ch_nl]) ls).

(* the loop hands over the complete lines at the head of the file one by one and goes on with what follows them *)
Lemma read_loop_app : forall ls fuel tail, Forall no_nl ls ->
  read_loop (List.length ls + fuel) (rd (text_of_lines ls ++ tail)) = ls ++ read_loop fuel (rd tail).
Proof.
  induction ls as [|l ls IH]; intros fuel tail H; [reflexivity|]. inversion H as [|? ? Hl Hls]; subst.
  unfold text_of_lines. cbn [map List.concat List.length Nat.add read_loop]. rewrite <- !app_assoc. cbn [app].
  assert (E : forall t, tf_eof (rd (l ++ ch_nl :: t)) = false) by (intros t; destruct l; reflexivity).
  rewrite E, read_line_terminated by exact Hl. cbn [app]. f_equal. apply IH. exact Hls.
Qed.

Lemma read_loop_lines : forall ls fuel, Forall no_nl ls -> (List.length ls < fuel)%nat ->
  read_loop fuel (rd (text_of_lines ls)) = ls.
Proof.
  intros ls fuel H Hf. replace fuel with (List.length ls + (fuel - List.length ls))%nat by lia.
  rewrite <- (app_nil_r (text_of_lines ls)), read_loop_app by exact H. destruct (fuel - _)%nat; apply app_nil_r.
Qed.

(* a last line without a line break is delivered too *)
Lemma read_loop_unterminated_last : forall ls last fuel, Forall no_nl ls -> no_nl last -> last <> [] -> (S (List.length ls) < fuel)%nat ->
  read_loop fuel (rd (text_of_lines ls ++ last)) = ls ++ [last].
Proof.
  intros ls last fuel H Hl Hne Hf. replace fuel with (List.length ls + (fuel - List.length ls))%nat by lia.
  rewrite read_loop_app by exact H. f_equal. destruct (fuel - _)%nat as [|[|k]] eqn:E; try lia.
  destruct last as [|ch r]; [contradiction|]. cbn [read_loop]. unfold tf_eof at 1. cbn [rd of_rest].
  rewrite read_line_unterminated by exact Hl. reflexivity.
Qed.

Lemma eof_exact content : tf_eof (rd content) = true <-> content = [].
Proof. unfold tf_eof, rd. cbn. destruct content; split; intros; try reflexivity; discriminate. Qed.
