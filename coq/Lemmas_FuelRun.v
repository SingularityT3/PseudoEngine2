(* Lemmas_FuelRun.v — the launcher inherits fuel monotonicity: a run that did not stop for lack of fuel is the
   run with any larger fuel. *)
From PE2 Require Import Run Lemmas_Frame Lemmas_Fuel.
Local Open Scope Z_scope.

Section Main.
Variables (ped : bool) (lim : limits).

Lemma run_main_fuel fuel more repl b root s :
  run_main ped lim fuel repl b root s = run_main ped lim (fuel + more) repl b root s \/
  exists s', run_main ped lim fuel repl b root s = (EAbort SFuel, s').
Proof.
  unfold run_main. destruct (evs_at_fuel ped repl lim fuel more _ (CRunBlock b root) s) as [E|[s' E]]; cbn [ev_call] in E; unfold run_block; rewrite E.
  - left. reflexivity.
  - right. exists s'. reflexivity.
Qed.

Theorem run_file_fuel fuel more content stdin fs rnd :
  run_file ped lim fuel content stdin fs rnd = run_file ped lim (fuel + more) content stdin fs rnd \/
  ob_status (run_file ped lim fuel content stdin fs rnd) = SFuel.
Proof.
  unfold run_file, run_source. destruct (lex ped (content ++ [ch_nl])) as [toks|e]; [|left; reflexivity].
  destruct (parse_program ped toks) as [b ps|k t ps|]; [|left; reflexivity|left; reflexivity].
  cbv zeta. destruct (run_main_fuel fuel more false b root_id (emit_warnings (p_warns ps) (init_state stdin fs rnd))) as [E|[s' E]]; rewrite E.
  - left. reflexivity.
  - right. reflexivity.
Qed.

Theorem run_file_fuel_monotone fuel more content stdin fs rnd :
  ob_status (run_file ped lim fuel content stdin fs rnd) <> SFuel ->
  run_file ped lim (fuel + more) content stdin fs rnd = run_file ped lim fuel content stdin fs rnd.
Proof. intros H. destruct (run_file_fuel fuel more content stdin fs rnd) as [E|E]; [symmetry; exact E|contradiction]. Qed.
End Main.
