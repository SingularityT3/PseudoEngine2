(* Lemmas_LexTotal.v — the lexer always makes progress: every step of the main loop consumes at least one
   character, so the loop's fuel (length of the text + 1) is never what stops it: an accepted text has been read to
   its end, for every text. *)
From PE2 Require Import Lexer Lemmas_Lexer.
Require Import Lia.
Local Open Scope Z_scope.

Definition len (s : lst) : nat := List.length (rest s).

Lemma advance_len s : len (advance s) = pred (len s).
Proof. unfold len. rewrite advance_eq. cbn [rest]. destruct (rest s); reflexivity. Qed.
Lemma advance_n_len n : forall s, (len (advance_n n s) <= len s)%nat.
Proof. induction n as [|n IH]; intros s; cbn [advance_n]; [lia|]. specialize (IH (advance s)). rewrite advance_len in IH. lia. Qed.
Lemma at_end_len s : at_end s = false <-> (0 < len s)%nat.
Proof. unfold at_end, len. destruct (rest s); cbn; split; intros; try lia; try discriminate; reflexivity. Qed.

Theorem lex_step_progress ped s toks s' toks' : at_end s = false -> lex_step ped s toks = LOk s' toks' -> (len s' < len s)%nat.
Proof.
  intros He H. destruct (lex_step_inv _ _ _ _ _ He H) as [[k ->] _]. apply at_end_len in He.
  pose proof (advance_n_len k (advance s)) as K. rewrite advance_len in K. lia.
Qed.

(* the main loop stops at the end of the text, never on its fuel *)
Theorem lex_loop_reads_everything ped : forall fuel s toks s' toks',
  (len s < fuel)%nat -> lex_loop fuel ped s toks = LOk s' toks' -> at_end s' = true.
Proof.
  induction fuel as [|f IH]; intros s toks s' toks' Hf H; [lia|]. cbn [lex_loop] in H.
  destruct (at_end s) eqn:E; [inversion H; subst; exact E|].
  destruct (lex_step ped s toks) as [s1 t1|e] eqn:E1; [|discriminate].
  eapply IH; [|exact H]. pose proof (lex_step_progress ped s toks s1 t1 E E1). lia.
Qed.

Theorem lex_total ped input :
  (exists e, lex ped input = inr e) \/
  (exists s toks, lex_loop (S (List.length (remove_cr input))) ped (init_lst (remove_cr input)) [] = LOk s toks /\ at_end s = true /\
                  lex ped input = inl (rev (mkTok TEXPRESSION_END (line s) (col s) [] :: toks))).
Proof.
  destruct (lex ped input) as [toks|e] eqn:E; [right|left; eauto].
  destruct (lex_inv _ _ _ E) as (s & ts & EL & ->). exists s, ts. split; [exact EL|split; [|reflexivity]].
  eapply lex_loop_reads_everything; [|exact EL]. unfold len, init_lst. destruct (remove_cr input); cbn; lia.
Qed.
