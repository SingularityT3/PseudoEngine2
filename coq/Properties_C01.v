(* Properties_C01.v — every input is either executed or diagnosed.
   PARTIAL.  In the model every hazard of the C++ that is logic (abort() guards, unchecked downcasts,
   null payloads, stol/stoul on token text, vector indexing) is an explicit `FCrash` outcome, so that
   "never crashes" is a statement and not true by construction.  Proved here: the lexer and the parser
   are total functions whose only outcomes are a token list / tree or a positioned diagnostic; the
   token invariants on which the literal constructors rely (so that IntegerNode/RealNode/CharNode cannot
   hit an unchecked conversion); the arithmetic leaves cannot trap; and one family of evaluator aborts is excluded for every
   program: the evaluator never finds a variable's cell holding an object of another class than its type says
   (C01_no_cell_of_the_wrong_class, program logic of Lemmas_ConstLogic.v).  That the evaluator reaches none of the OTHER FCrash
   outcomes is checked by the correspondence on the crash oracle (normal + sanitizer build), not proved. *)
From PE2 Require Import Lexer Parser Eval Run Lemmas_Lexer Lemmas_Expr Lemmas_Fuel Lemmas_FuelRun Lemmas_Out Lemmas_LexTotal Lemmas_ParserFuel Lemmas_ConstLogic Lemmas_ConstThm.
Local Open Scope Z_scope.

(* every CHAR token holds exactly one character; every INTEGER/REAL token is non-empty and starts with a digit *)
Theorem C01_lexer_tokens_wf : forall ped input toks, lex ped input = inl toks -> Forall tok_wf toks.
Proof. exact lex_tokens_wf. Qed.
Print Assumptions C01_lexer_tokens_wf.

(* INTEGER DIV/MOD cannot trap: the result is a 64-bit integer for every divisor other than zero,
   including the minimum value divided by -1 *)
Theorem C01_div_cannot_trap : forall a b, b <> 0 -> int64_min <= a <= int64_max -> int64_min <= arith_int TDIV a b <= int64_max.
Proof. exact div_in_range. Qed.
Print Assumptions C01_div_cannot_trap.

(* 64-bit wrap is total and stays in range (the recorded assumption: overflow wraps silently) *)
Theorem C01_wrap_in_range : forall z, int64_min <= wrap64 z <= int64_max.
Proof. exact wrap64_in_range. Qed.
Print Assumptions C01_wrap_in_range.

(* the lexer is total and always makes progress: for every text it either reports a lexical error or has read the
   text to its end -- its loop is never stopped by its fuel *)
Theorem C01_lexer_reads_everything_or_diagnoses : forall ped input,
  (exists e, lex ped input = inr e) \/
  (exists s toks, lex_loop (S (List.length (remove_cr input))) ped (init_lst (remove_cr input)) [] = LOk s toks /\ at_end s = true /\
                  lex ped input = inl (rev (mkTok TEXPRESSION_END (line s) (col s) [] :: toks))).
Proof. exact lex_total. Qed.
Print Assumptions C01_lexer_reads_everything_or_diagnoses.

Theorem C01_lexer_step_consumes : forall ped s toks s' toks', at_end s = false -> lex_step ped s toks = LOk s' toks' ->
  (List.length (rest s') < List.length (rest s))%nat.
Proof. exact lex_step_progress. Qed.
Print Assumptions C01_lexer_step_consumes.

(* the recursion fuel of the model is only a bound, not a behaviour: a run that did not stop for lack of fuel is the
   run with every larger fuel (so "executed or diagnosed" does not depend on the number chosen, and a fuel stop is
   the one outcome the correspondence counts as inconclusive) *)
Theorem C01_fuel_is_only_a_bound : forall ped lim fuel more content stdin fs rnd,
  ob_status (run_file ped lim fuel content stdin fs rnd) <> SFuel ->
  run_file ped lim (fuel + more) content stdin fs rnd = run_file ped lim fuel content stdin fs rnd.
Proof. exact run_file_fuel_monotone. Qed.
Print Assumptions C01_fuel_is_only_a_bound.

Theorem C01_evaluator_fuel_step : forall ped repl lim fuel bl c s,
  run_block ped repl lim fuel bl c s = run_block ped repl lim (S fuel) bl c s \/ exists s', run_block ped repl lim fuel bl c s = (Fail FFuel, s').
Proof. exact run_block_fuel_step. Qed.
Print Assumptions C01_evaluator_fuel_step.

Theorem C01_parser_fuel_step : forall ped fuel bt s,
  parse_block ped fuel bt s = parse_block ped (S fuel) bt s \/ parse_block ped fuel bt s = PFuel.
Proof. exact parse_block_fuel_step. Qed.
Print Assumptions C01_parser_fuel_step.

(* whatever happens (diagnostic, signal, internal crash outcome, fuel stop), what was printed stays printed *)
Theorem C01_output_is_append_only : forall ped repl lim fuel bl c s,
  exists e, s_out (snd (run_block ped repl lim fuel bl c s)) = e ++ s_out s.
Proof. exact run_block_output_append_only. Qed.
Print Assumptions C01_output_is_append_only.

(* non-vacuity: a crash outcome exists in the model and is reachable for ill-formed internal states *)
Example C01_crash_is_observable : exists r s, as_int r s = (Fail (FCrash "get<Integer> on other payload"), s).
Proof. exists (mkRes (dt_prim KInt) (Some (PStr []))), (mkSt 0%N nm_empty nm_empty nm_empty [] [] [] [] [] [] 0 0 0 []). reflexivity. Qed.

(* no type confusion: from any state that satisfies the heap invariant (the initial state does, every block and every REPL entry
   keeps it: C05, C12), the evaluator never ends in the abort that stands for "a variable's cell holds an object of another class
   than its declared type says" -- in the C++ a static_cast to the wrong class.  The sites (assignment to enumerated, pointer and
   record variables, the FOR counter, pointer assignment, dereference, field access) are each excluded by the kind clause of the
   invariant; proved in the program logic, whose triples forbid exactly this outcome. *)
Theorem C01_no_cell_of_the_wrong_class : forall ped repl lim fuel bl c s, Inv s ->
  fst (run_block ped repl lim fuel bl c s) <> Fail (FCrash "cell payload disagrees with its type").
Proof. intros ped repl lim fuel bl c s HI. apply ok_out_not_bad; [reflexivity|apply run_block_ends_ok, HI]. Qed.
Print Assumptions C01_no_cell_of_the_wrong_class.

Theorem C01_no_cell_of_the_wrong_class_in_expressions : forall ped repl lim fuel n c s, Inv s ->
  fst (ev_eval (evs_at ped repl lim fuel) n c s) <> Fail (FCrash "cell payload disagrees with its type").
Proof. intros ped repl lim fuel n c s HI. apply ok_out_not_bad; [reflexivity|apply eval_ends_ok, HI]. Qed.
Print Assumptions C01_no_cell_of_the_wrong_class_in_expressions.

(* likewise the abort of Variable::set: a field-wise or element-wise copy (record assignment, whole-array assignment) never meets a
   destination of another kind than the value copied into it; the layout comparison made before the copy has established it *)
Theorem C01_no_payload_reinterpreted_by_a_copy : forall ped repl lim fuel bl c s, Inv s ->
  fst (run_block ped repl lim fuel bl c s) <> Fail (FCrash "Variable::set: payload reinterpreted as another type").
Proof. intros ped repl lim fuel bl c s HI. apply ok_out_not_bad; [reflexivity|apply run_block_ends_ok, HI]. Qed.
Print Assumptions C01_no_payload_reinterpreted_by_a_copy.
