(* Properties_C08.v — a CONSTANT never changes after its definition.
   Proved over the whole evaluator, for every syntax tree (also trees no parser produces), every fuel and every outcome:
   a constant cell of primitive type that belongs to an ordinary (non-record) context holds, after any block has run, the very
   same cell -- name, type, flag, owner and VALUE (C08_constants_never_change).  'CONSTANT c = <literal>' executed in an ordinary
   context creates such a cell (C08_constant_statement_creates_a_protected_cell), and the heap invariant the theorem needs holds in
   the initial state of every run and is kept by every block (C08_invariant_holds_initially, C08_invariant_is_kept).
   The guards are where the C++ has them -- assignment, FOR, INPUT, READFILE and GETRECORD test the flag of the cell they are
   about to write; pointer assignment, record copy and whole-array copy have no test and are safe because of WHAT they write to
   (a cell of pointer type; the cells of a record's private context; array elements) -- so the proof is a program logic over all
   ten evaluation functions (Lemmas_ConstLogic.v, Lemmas_ConstEval.v, Lemmas_ConstExpr.v, Lemmas_ConstThm.v): it fails to go
   through if any write site loses its guard.  Also: an attempt on a constant cell through the assignment store sequence is an
   error with the state unchanged, and the flag itself is permanent. *)
From PE2 Require Import Eval Run Lemmas_Store Lemmas_Out Lemmas_Copy Lemmas_DeepCopy Lemmas_ConstLogic Lemmas_ConstThm Lemmas_ConstStates Lemmas_ForStates.

Theorem C08_assignment_to_constant_no_effect : forall t c id v s cl,
  get_cell id s = (Ok cl, s) -> well_tagged v -> c_const cl = true ->
  exists f, store_value t c id v s = (Fail f, s).
Proof. intros t c id v s cl H W K. eapply rejected_store_no_effect; eauto. Qed.
Print Assumptions C08_assignment_to_constant_no_effect.

(* a BYREF formal and a pointer target denote the constant's own cell, so the same test applies:
   aliases are cell identifiers, there is no second copy of the flag *)
Theorem C08_flag_lives_in_the_cell : forall id v s c0, get_cell id s = (Ok c0, s) ->
  forall s1 o, set_cell_val id v s = (o, s1) -> forall c1, get_cell id s1 = (Ok c1, s1) -> c_const c1 = c_const c0.
Proof.
  intros id v s c0 H s1 o Hs c1 H1. apply get_cell_inv in H as [_ H]. rewrite (set_cell_val_at v H) in Hs. inversion Hs; subst.
  apply get_cell_inv in H1 as [_ H1]. cbn in H1. rewrite nm_get_put_same in H1. inversion H1. reflexivity.
Qed.
Print Assumptions C08_flag_lives_in_the_cell.

Theorem C08_constant_flag_is_permanent : forall ped repl lim fuel bl c s id cl,
  (forall j x, nm_get j (s_cells s) = Some x -> (j < s_next s)%N) -> nm_get id (s_cells s) = Some cl -> c_const cl = true ->
  exists cl', nm_get id (s_cells (snd (run_block ped repl lim fuel bl c s))) = Some cl' /\ c_const cl' = true /\ c_type cl' = c_type cl.
Proof.
  intros ped repl lim fuel bl c s id cl Hb E K.
  destruct (constant_flag_and_type_are_permanent ped repl lim fuel bl c s id cl Hb E) as [cl' [E' [H1 [H2 _]]]].
  exists cl'. split; [exact E'|]. split; [congruence|exact H2].
Qed.
Print Assumptions C08_constant_flag_is_permanent.

(* THE property: every later read of c yields v.  A CONSTANT cell of primitive type owned by an ordinary context is the same
   cell after any block -- whatever the block is, however it ends *)
Theorem C08_constants_never_change : forall ped repl lim fuel bl c s id cl, Inv s ->
  nm_get id (s_cells s) = Some cl -> c_const cl = true -> prim_kind (dk (c_type cl)) = true -> plain_ctx s (c_owner cl) ->
  nm_get id (s_cells (snd (run_block ped repl lim fuel bl c s))) = Some cl.
Proof. exact protected_constant_unchanged. Qed.
Print Assumptions C08_constants_never_change.

Theorem C08_invariant_is_kept : forall ped repl lim fuel bl c s, Inv s ->
  Inv (snd (run_block ped repl lim fuel bl c s)) /\ K s (snd (run_block ped repl lim fuel bl c s)).
Proof. exact run_block_keeps. Qed.
Print Assumptions C08_invariant_is_kept.

Theorem C08_invariant_holds_initially : forall stdin fs rnd, Inv (init_state stdin fs rnd).
Proof. exact Inv_init. Qed.
Print Assumptions C08_invariant_holds_initially.

(* 'CONSTANT c = <literal>' in an ordinary context: the new cell is such a constant, entered under the name c *)
Theorem C08_constant_statement_creates_a_protected_cell : forall ped repl lim f t v id c s r s',
  is_literal v = true -> plain_ctx s c ->
  ev_eval (evs_at ped repl lim (S (S f))) (NConst t v id) c s = (Ok r, s') ->
  exists cl, nm_get (s_next s) (s_cells s') = Some cl /\ protected_cell s' cl /\ c_name cl = tval id /\
             (exists cx, nm_get c (s_ctxs s') = Some cx /\ In (tval id, s_next s) (x_vars cx)).
Proof. exact constant_statement_creates_a_protected_cell. Qed.
Print Assumptions C08_constant_statement_creates_a_protected_cell.

(* non-vacuity: the global context of the initial state is an ordinary context *)
Example C08_global_context_is_ordinary : forall stdin fs rnd, plain_ctx (init_state stdin fs rnd) root_id.
Proof. intros. exists global_ctx. split; [unfold init_state; cbn [s_ctxs]; apply nm_get_put_same|reflexivity]. Qed.

(* ---- the attempts themselves, statement by statement, in every state: each is a runtime error and the WHOLE state -- the constant
   included -- is exactly as it was (the value expression / target resolution being any that does not touch the state) ---- *)
Theorem C08_constant_under_an_existing_name_is_an_error : forall ped repl lim fuel t v id c s r i,
  ev_eval (evs_at ped repl lim fuel) v c s = (Ok r, s) -> lookup_var c (tval id) false s = (Ok (Some i), s) ->
  exists f, ev_eval (evs_at ped repl lim (S fuel)) (NConst t v id) c s = (Fail f, s).
Proof. exact constant_under_an_existing_name_is_an_error. Qed.
Print Assumptions C08_constant_under_an_existing_name_is_an_error.

Theorem C08_input_into_a_constant_is_an_error : forall ped repl lim fuel t r c s id cl,
  ev_resolve (evs_at ped repl lim fuel) r c s = (Ok (HVar id), s) -> nm_get id (s_cells s) = Some cl -> c_const cl = true ->
  exists f, ev_eval (evs_at ped repl lim (S fuel)) (NInput t r) c s = (Fail f, s).
Proof. exact input_into_a_constant_is_an_error. Qed.
Print Assumptions C08_input_into_a_constant_is_an_error.

Theorem C08_readfile_into_a_constant_is_an_error : forall ped repl lim fuel t name id c s fh vid cl,
  find_file (tval name) (s_files s) = Some fh -> of_mode fh = FRead ->
  lookup_var c (tval id) true s = (Ok (Some vid), s) -> nm_get vid (s_cells s) = Some cl -> dk (c_type cl) = KStr -> c_const cl = true ->
  exists f, ev_eval (evs_at ped repl lim (S (S fuel))) (NReadFile t (NStr name) id) c s = (Fail f, s).
Proof. exact readfile_into_a_constant_is_an_error. Qed.
Print Assumptions C08_readfile_into_a_constant_is_an_error.

Theorem C08_for_over_a_constant_is_an_error : forall ped repl lim fuel t id start stop step body c s i cl,
  lookup_var c (tval id) true s = (Ok (Some i), s) -> nm_get i (s_cells s) = Some cl -> c_const cl = true ->
  exists f, ev_eval (evs_at ped repl lim (S fuel)) (NFor t id start stop step body) c s = (Fail f, s).
Proof. exact for_over_a_constant_is_an_error. Qed.
Print Assumptions C08_for_over_a_constant_is_an_error.
