(* Lemmas_ConstLogic.v -- a program logic over the state monad of the evaluator, for two whole-evaluator facts at once: constants
   never change (a CONSTANT cell of primitive type that belongs to an ordinary context keeps its payload) and stores are typed (the
   payload of a cell is of the kind, and of the user type, its declared type says).  The guards are where the C++ has them (assignment,
   FOR, INPUT, READFILE, GETRECORD test the flag of the cell they are about to write; pointer assignment, record copy and array copy
   have no test and are safe because of what they write to), so the proof is a logic of triples {P} m {Q} whose frame part (the heap
   invariant Inv and "what existed is kept", K) is built in, P and Q being facts that stay true whatever runs in between. *)
From PE2 Require Import Eval Lemmas_Copy Lemmas_DeepCopy Lemmas_Frame Lemmas_Out.
Local Open Scope N_scope.
(* closes [True] and, further down, [ok_fail f]: trivially, or by comparing a crash site with the two excluded ones *)
Ltac okf := first [ exact I | reflexivity ].

Definition prim_kind (k : dkind) : bool :=
  match k with KInt | KReal | KBool | KChar | KStr | KDate => true | _ => false end.
Definition rec_ctx (s : st) (c : N) : Prop := exists cx, nm_get c (s_ctxs s) = Some cx /\ x_isrec cx = true.
Definition plain_ctx (s : st) (c : N) : Prop := exists cx, nm_get c (s_ctxs s) = Some cx /\ x_isrec cx = false.
Definition protected_cell (s : st) (cl : cell) : Prop :=
  c_const cl = true /\ prim_kind (dk (c_type cl)) = true /\ plain_ctx s (c_owner cl).

Definition pname (p : payload) : option str := match p with PEnum tn _ | PPtr tn _ _ | PRec tn _ => Some tn | _ => None end.
Definition named_ok (p : payload) (ty : dtype) : Prop := forall tn, pname p = Some tn -> dname ty = Some tn.
Definition named_kind (k : dkind) : bool := match k with KEnum | KPtr | KRec => true | _ => false end.
Lemma pname_kind p tn : pname p = Some tn -> named_kind (payload_kind p) = true.
Proof. destruct p; cbn; intros H; try discriminate H; reflexivity. Qed.
Lemma kind_pname p : named_kind (payload_kind p) = true -> exists tn, pname p = Some tn.
Proof. destruct p; cbn; intros H; try discriminate H; eauto. Qed.

Record Inv (s : st) : Prop := mkInv {
  i_hb : hb s;
  (* the variables listed in a record's private context are cells of a record context *)
  i_recvars : forall rc cx nm id, nm_get rc (s_ctxs s) = Some cx -> x_isrec cx = true -> In (nm, id) (x_vars cx) ->
              exists cl, nm_get id (s_cells s) = Some cl /\ rec_ctx s (c_owner cl);
  (* array elements are never constants, and have the array's element type *)
  i_elems : forall a ar e, nm_get a (s_arrs s) = Some ar -> In e (a_elems ar) ->
            exists cl, nm_get e (s_cells s) = Some cl /\ c_const cl = false /\ c_type cl = a_type ar;
  (* a record value in a cell refers to a record context *)
  i_recval : forall id cl tn c, nm_get id (s_cells s) = Some cl -> c_val cl = PRec tn c -> rec_ctx s c;
  (* so does a record value kept as a function's return value *)
  i_retval : forall id cx r tn c, nm_get id (s_ctxs s) = Some cx -> x_retval cx = Some r -> r_val r = Some (PRec tn c) -> rec_ctx s c;
  (* the payload of a cell is of the kind its declared type says: no value is ever reinterpreted as another type *)
  i_kind : forall id cl, nm_get id (s_cells s) = Some cl -> payload_kind (c_val cl) = dk (c_type cl);
  (* and a kept return value is of the kind its own type says *)
  i_retkind : forall id cx r p, nm_get id (s_ctxs s) = Some cx -> x_retval cx = Some r -> r_val r = Some p -> payload_kind p = dk (r_type r);
  (* and of the user type it says: an enumerated, pointer or record value carries the name of the declared type *)
  i_name : forall id cl, nm_get id (s_cells s) = Some cl -> named_ok (c_val cl) (c_type cl);
  i_retname : forall id cx r p, nm_get id (s_ctxs s) = Some cx -> x_retval cx = Some r -> r_val r = Some p -> named_ok p (r_type r) }.

(* what every computation keeps *)
Definition same_ctx_kind (c c' : ctx) : Prop := x_isrec c' = x_isrec c.
Record K (s s' : st) : Prop := mkK {
  k_next : s_next s <= s_next s';
  k_meta : forall id cl, nm_get id (s_cells s) = Some cl -> exists cl', nm_get id (s_cells s') = Some cl' /\ same_meta cl cl';
  k_ctx : forall id cx, nm_get id (s_ctxs s) = Some cx -> exists cx', nm_get id (s_ctxs s') = Some cx' /\ same_ctx_kind cx cx';
  k_arr : forall id a, nm_get id (s_arrs s) = Some a -> nm_get id (s_arrs s') = Some a;
  k_prot : forall id cl, nm_get id (s_cells s) = Some cl -> protected_cell s cl -> nm_get id (s_cells s') = Some cl }.

Lemma K_refl s : K s s.
Proof. constructor; intros; eauto; try lia. - exists cl. split; [assumption|apply same_meta_refl]. - exists cx. split; [assumption|reflexivity]. Qed.

(* [ctxkind c true s] is [rec_ctx s c] and [ctxkind c false s] is [plain_ctx s c], by conversion *)
Definition ctxkind (c : N) (b : bool) (s : st) : Prop := exists cx, nm_get c (s_ctxs s) = Some cx /\ x_isrec cx = b.
Lemma ctxkind_K c b s s' : K s s' -> ctxkind c b s -> ctxkind c b s'.
Proof. intros H [cx [E F]]. destruct (k_ctx _ _ H c cx E) as [cx' [E' S]]. exists cx'. split; [exact E'|]. unfold same_ctx_kind in S. congruence. Qed.
Lemma protected_K s s' cl : K s s' -> protected_cell s cl -> protected_cell s' cl.
Proof. intros H [A [B C]]. split; [exact A|]. split; [exact B|]. eapply (ctxkind_K _ false); eauto. Qed.

Lemma K_trans a b c : K a b -> K b c -> K a c.
Proof.
  intros H1 H2. constructor.
  - pose proof (k_next _ _ H1). pose proof (k_next _ _ H2). lia.
  - intros id cl E. destruct (k_meta _ _ H1 id cl E) as [x [Ex Mx]]. destruct (k_meta _ _ H2 id x Ex) as [y [Ey My]].
    exists y. split; [exact Ey|eapply same_meta_trans; eauto].
  - intros id cx E. destruct (k_ctx _ _ H1 id cx E) as [x [Ex Mx]]. destruct (k_ctx _ _ H2 id x Ex) as [y [Ey My]].
    exists y. split; [exact Ey|]. unfold same_ctx_kind in *. congruence.
  - intros id x E. apply (k_arr _ _ H2). apply (k_arr _ _ H1). exact E.
  - intros id cl E P. pose proof (k_prot _ _ H1 id cl E P) as E1. apply (k_prot _ _ H2 id cl E1). eapply protected_K; eauto.
Qed.

(* facts that stay true whatever runs *)
Definition stable (F : st -> Prop) : Prop := forall s s', K s s' -> F s -> F s'.
(* the cell exists and has this name, type, CONSTANT flag and owner *)
Definition cellmeta (id : N) (cl : cell) (s : st) : Prop := exists c', nm_get id (s_cells s) = Some c' /\ same_meta cl c'.
(* the cell exists and may be written: it is not a protected constant *)
Definition writable (id : N) (s : st) : Prop := exists cl, nm_get id (s_cells s) = Some cl /\ ~ protected_cell s cl.

Lemma stable_true : stable (fun _ => True).
Proof. intros s s' _ _. okf. Qed.
Lemma stable_and F G : stable F -> stable G -> stable (fun s => F s /\ G s).
Proof. intros HF HG s s' H [A B]. split; [eapply HF|eapply HG]; eauto. Qed.
Lemma stable_pure (X : Prop) : stable (fun _ => X).
Proof. intros s s' _ H. exact H. Qed.
Lemma stable_cellmeta id cl : stable (cellmeta id cl).
Proof. intros s s' H [c' [E M]]. destruct (k_meta _ _ H id c' E) as [c'' [E' M']]. exists c''. split; [exact E'|eapply same_meta_trans; eauto]. Qed.
Lemma stable_ctxkind c b : stable (ctxkind c b).
Proof. exact (ctxkind_K c b). Qed.

(* a cell whose flag, type or owner rule it out is writable, and stays so *)
Definition unprotected_meta (s : st) (cl : cell) : Prop :=
  c_const cl = false \/ prim_kind (dk (c_type cl)) = false \/ rec_ctx s (c_owner cl).
Lemma unprotected_not_protected s cl : unprotected_meta s cl -> ~ protected_cell s cl.
Proof.
  intros [H|[H|[cx [E F]]]] [A [B [cx' [E' F']]]]; try congruence.
Qed.
Definition wr (id : N) (s : st) : Prop := exists cl, nm_get id (s_cells s) = Some cl /\ unprotected_meta s cl.
Lemma wr_writable id s : wr id s -> writable id s.
Proof. intros [cl [E U]]. exists cl. split; [exact E|apply unprotected_not_protected; exact U]. Qed.
Lemma stable_wr id : stable (wr id).
Proof.
  intros s s' H [cl [E U]]. destruct (k_meta _ _ H id cl E) as [cl' [E' [M1 [M2 [M3 M4]]]]]. exists cl'. split; [exact E'|].
  unfold unprotected_meta in *. rewrite M2, M3, M4. destruct U as [U|[U|U]]; auto. right. right. eapply (ctxkind_K _ true); eauto.
Qed.
Lemma cellmeta_wr id cl s : cellmeta id cl s -> (c_const cl = false \/ prim_kind (dk (c_type cl)) = false) -> wr id s.
Proof.
  intros [c' [E [M1 [M2 [M3 M4]]]]] H. exists c'. split; [exact E|]. unfold unprotected_meta. rewrite M2, M3. destruct H; auto.
Qed.

(* the failures a computation may end in: anything but the abort that stands for "a variable holds an object of another class than
   its type says" (static_cast on the wrong class in the C++) *)
(* the two strings are the crash literals of Heap.v, Control.v and Eval.v for these aborts: were one of them edited in the model,
   the theorems would still hold and exclude nothing for that site *)
Definition bad_site (w : string) : bool :=
  String.eqb w "cell payload disagrees with its type" || String.eqb w "Variable::set: payload reinterpreted as another type".
Definition ok_fail (f : fail) : Prop := match f with FCrash w => bad_site w = false | _ => True end.
Definition ok_out {A} (o : outcome A) : Prop := match o with Ok _ => True | Fail f => ok_fail f end.
Definition tr {A} (P : st -> Prop) (m : M A) (Q : A -> st -> Prop) : Prop :=
  forall s, Inv s -> P s ->
    Inv (snd (m s)) /\ K s (snd (m s)) /\ match fst (m s) with Ok a => Q a (snd (m s)) | Fail f => ok_fail f end.

Lemma tr_ret {A} (P : st -> Prop) (a : A) : tr P (ret a) (fun x s => x = a /\ P s).
Proof. intros s HI HP. cbn. split; [exact HI|]. split; [apply K_refl|auto]. Qed.
Lemma tr_failm {A} (P : st -> Prop) f (Q : A -> st -> Prop) : ok_fail f -> tr P (failm f) Q.
Proof. intros Hf s HI HP. cbn. split; [exact HI|]. split; [apply K_refl|exact Hf]. Qed.
Lemma tr_post {A} (P : st -> Prop) (m : M A) (Q Q' : A -> st -> Prop) : tr P m Q -> (forall a s, Q a s -> Q' a s) -> tr P m Q'.
Proof. intros H HQ s HI HP. destruct (H s HI HP) as [A1 [A2 A3]]. split; [exact A1|]. split; [exact A2|]. destruct (fst (m s)); auto. Qed.
Lemma tr_pre {A} (P P' : st -> Prop) (m : M A) (Q : A -> st -> Prop) : (forall s, P s -> P' s) -> tr P' m Q -> tr P m Q.
Proof. intros HP H s HI Hs. apply (H s HI (HP s Hs)). Qed.
Lemma tr_true {A} (P : st -> Prop) (m : M A) (Q : A -> st -> Prop) : tr P m Q -> tr P m (fun _ _ => True).
Proof. intros H. eapply tr_post; [exact H|auto]. Qed.

(* sequencing: what held before stays true, what the first computation established is known to the second *)
Lemma tr_bind {A B} (P : st -> Prop) (m : M A) (Q : A -> st -> Prop) (k : A -> M B) (R : B -> st -> Prop) :
  stable P -> tr P m Q -> (forall a, tr (fun s => P s /\ Q a s) (k a) R) -> tr P (bind m k) R.
Proof.
  intros SP Hm Hk s HI HP. unfold bind. destruct (Hm s HI HP) as [A1 [A2 A3]].
  destruct (m s) as [[a|f] s1]; cbn [fst snd] in *.
  - destruct (Hk a s1 A1 (conj (SP _ _ A2 HP) A3)) as [B1 [B2 B3]]. split; [exact B1|]. split; [eapply K_trans; eauto|exact B3].
  - split; [exact A1|]. split; [exact A2|exact A3].
Qed.
(* the same with the stability of the new precondition handed to the continuation, so that a long sequence proves it once per step *)
Lemma tr_bind_s {A B} (P : st -> Prop) (m : M A) (Q : A -> st -> Prop) (k : A -> M B) (R : B -> st -> Prop) :
  stable P -> tr P m Q -> (forall a, stable (Q a)) ->
  (forall a, stable (fun s => P s /\ Q a s) -> tr (fun s => P s /\ Q a s) (k a) R) -> tr P (bind m k) R.
Proof. intros SP Hm SQ Hk. eapply tr_bind; [exact SP|exact Hm|]. intros a. apply Hk. apply stable_and; [exact SP|apply SQ]. Qed.
Lemma tr_catch {A} (P : st -> Prop) (m : M A) (Q : A -> st -> Prop) h : stable P -> tr P m Q -> (forall f m', h f = Some m' -> tr P m' Q) -> tr P (catch m h) Q.
Proof.
  intros SP Hm Hh s HI HP. unfold catch. destruct (Hm s HI HP) as [A1 [A2 A3]].
  destruct (m s) as [[a|f] s1]; cbn [fst snd] in *; [auto|].
  destruct (h f) as [m'|] eqn:E; [|cbn [fst snd]; auto].
  destruct (Hh f m' E s1 A1 (SP _ _ A2 HP)) as [B1 [B2 B3]]. split; [exact B1|]. split; [eapply K_trans; eauto|exact B3].
Qed.

(* a computation that leaves the state alone (the facts of Lemmas_Frame.v about its own [ro], which reads the same, apply) *)
Definition ro {A} (m : M A) : Prop := forall s, snd (m s) = s.
(* a computation that does not end in an excluded abort *)
Definition nb {A} (m : M A) : Prop := forall s, ok_out (fst (m s)).
Lemma tr_ro {A} (P : st -> Prop) (m : M A) : ro m -> nb m -> tr P m (fun _ s => P s).
Proof. intros H Hn s HI HP. rewrite (H s). split; [exact HI|]. split; [apply K_refl|]. specialize (Hn s). destruct (fst (m s)); [exact HP|exact Hn]. Qed.
(* an update of anything but the heap *)
Definition heap_same (s s' : st) : Prop := s_next s' = s_next s /\ s_cells s' = s_cells s /\ s_arrs s' = s_arrs s /\ s_ctxs s' = s_ctxs s.
Lemma Inv_heap_same s s' : heap_same s s' -> Inv s -> Inv s'.
Proof.
  intros [H1 [H2 [H3 H4]]] [A B C D E F G IN IRN]. constructor; unfold hb, rec_ctx in *; rewrite ?H1, ?H2, ?H3, ?H4; auto.
Qed.
Lemma K_heap_same s s' : heap_same s s' -> K s s'.
Proof.
  intros [H1 [H2 [H3 H4]]]. constructor; rewrite ?H1, ?H2, ?H3, ?H4; intros; eauto; try lia.
  - exists cl. split; [assumption|apply same_meta_refl].
  - exists cx. split; [assumption|reflexivity].
Qed.
Lemma tr_modify_other (P : st -> Prop) f : stable P -> (forall s, heap_same s (f s)) -> tr P (modify f) (fun _ s => P s).
Proof.
  intros SP H s HI HP. cbn. pose proof (K_heap_same _ _ (H s)) as HK. split; [eapply Inv_heap_same; eauto|]. split; [exact HK|eapply SP; eauto].
Qed.

(* a computation that leaves the heap alone and does not end in an excluded abort *)
Definition hn {A} (m : M A) : Prop := forall s, heap_same s (snd (m s)) /\ ok_out (fst (m s)).
Lemma heap_same_refl s : heap_same s s. Proof. repeat split. Qed.
Lemma heap_same_trans a b c : heap_same a b -> heap_same b c -> heap_same a c.
Proof. unfold heap_same. intros [A1 [A2 [A3 A4]]] [B1 [B2 [B3 B4]]]. repeat split; congruence. Qed.
Lemma hn_ret {A} (a : A) : hn (ret a). Proof. intros s. split; [apply heap_same_refl|exact I]. Qed.
Lemma hn_failm {A} f : ok_fail f -> hn (@failm A f). Proof. intros H s. split; [apply heap_same_refl|exact H]. Qed.
Lemma hn_gets {A} (f : st -> A) : hn (gets f). Proof. intros s. split; [apply heap_same_refl|exact I]. Qed.
Lemma hn_get_cell id : hn (get_cell id). Proof. intros s. unfold get_cell. destruct (nm_get id (s_cells s)); (split; [apply heap_same_refl|okf]). Qed.
Lemma hn_get_arr id : hn (get_arr id). Proof. intros s. unfold get_arr. destruct (nm_get id (s_arrs s)); (split; [apply heap_same_refl|okf]). Qed.
Lemma hn_get_ctx id : hn (get_ctx id). Proof. intros s. unfold get_ctx. destruct (nm_get id (s_ctxs s)); (split; [apply heap_same_refl|okf]). Qed.
Lemma hn_bind {A B} (m : M A) (k : A -> M B) : hn m -> (forall a, hn (k a)) -> hn (bind m k).
Proof.
  intros Hm Hk s. unfold bind. destruct (Hm s) as [H1 H2]. destruct (m s) as [[a|f] s1]; cbn [fst snd] in *.
  - destruct (Hk a s1) as [G1 G2]. split; [eapply heap_same_trans; eauto|exact G2].
  - split; assumption.
Qed.
Lemma hn_modify f : (forall s, heap_same s (f s)) -> hn (modify f).
Proof. intros H s. split; [apply H|exact I]. Qed.
Lemma hn_catch {A} (m : M A) h : hn m -> (forall f m', h f = Some m' -> hn m') -> hn (catch m h).
Proof.
  intros Hm Hh s. unfold catch. destruct (Hm s) as [H1 H2]. destruct (m s) as [[a|f] s1]; cbn [fst snd] in *; [split; assumption|].
  destruct (h f) as [m'|] eqn:E; [|split; assumption]. destruct (Hh f m' E s1) as [G1 G2]. split; [eapply heap_same_trans; eauto|exact G2].
Qed.
Lemma tr_hn {A} (P : st -> Prop) (m : M A) : stable P -> hn m -> tr P m (fun _ s => P s).
Proof.
  intros SP H s HI HP. destruct (H s) as [Hs Ho]. pose proof (K_heap_same _ _ Hs) as HK.
  split; [eapply Inv_heap_same; eauto|]. split; [exact HK|]. destruct (fst (m s)); [eapply SP; eauto|exact Ho].
Qed.
Lemma tr_hn_true {A} (P : st -> Prop) (m : M A) : hn m -> tr P m (fun _ _ => True).
Proof. intros H. apply (tr_pre P (fun _ => True)); [auto|]. apply tr_hn; [apply stable_true|exact H]. Qed.

Lemma hn_mapM {A B} (f : A -> M B) l : (forall x, hn (f x)) -> hn (mapM f l).
Proof. intros H. induction l as [|x r IH]; cbn [mapM]; [apply hn_ret|]. apply hn_bind; [apply H|]. intros y. apply hn_bind; [exact IH|]. intros ys. apply hn_ret. Qed.
Lemma hn_iterM {A} (f : A -> M unit) l : (forall x, hn (f x)) -> hn (iterM f l).
Proof. intros H. induction l as [|x r IH]; cbn [iterM]; [apply hn_ret|]. apply hn_bind; [apply H|]. intros y. exact IH. Qed.
Lemma hn_all2M {A B} (f : A -> B -> M bool) l1 : forall l2, (forall x y, hn (f x y)) -> hn (all2M f l1 l2).
Proof.
  induction l1 as [|x r IH]; intros l2 H; cbn [all2M]; [apply hn_ret|]. destruct l2 as [|y r2]; [apply hn_ret|].
  apply hn_bind; [apply H|]. intros ok. destruct ok; [apply IH; exact H|apply hn_ret].
Qed.

Lemma hn_trace_aux fuel : forall id, hn (trace_aux fuel id).
Proof. induction fuel as [|f IH]; intros id; cbn [trace_aux]; [apply hn_ret|]. destruct id; [|apply hn_ret]. apply hn_bind; [apply hn_get_ctx|]. intros c. apply hn_bind; [apply IH|]. intros r. apply hn_ret. Qed.
Lemma hn_runtime_error_cls {A} cls t c : hn (@runtime_error_cls A cls t c).
Proof.
  intros s. unfold runtime_error_cls.
  assert (H : hn (cx <- get_ctx c ;; rest <- trace_aux (S (x_depth cx)) (x_parent cx) ;; ret (mkDiag DRuntime (tline t) (tcol t) cls ((x_name cx, tline t, tcol t) :: rest)))).
  { apply hn_bind; [apply hn_get_ctx|]. intros cx. apply hn_bind; [apply hn_trace_aux|]. intros r. apply hn_ret. }
  specialize (H s). destruct ((cx <- get_ctx c ;; _) s) as [[d|f] s1]; cbn [fst snd] in *; [split; [apply H|exact I]|exact H].
Qed.
Lemma tr_error_cls {A} (P : st -> Prop) cls t c (Q : A -> st -> Prop) : tr P (runtime_error_cls cls t c) Q.
Proof.
  intros s HI HP. pose proof (@ro_runtime_error_cls A cls t c s) as H. rewrite H.
  split; [exact HI|]. split; [apply K_refl|]. pose proof (proj2 (@hn_runtime_error_cls A cls t c s)) as N.
  unfold runtime_error_cls in *. destruct ((cx <- get_ctx c ;; _) s) as [[d|f] s1]; cbn [fst] in *; exact N.
Qed.
Lemma tr_rt_error {A} (P : st -> Prop) t c (Q : A -> st -> Prop) : tr P (rt_error t c) Q.
Proof. apply tr_error_cls. Qed.

Ltac head_of t := match t with ?f _ => head_of f | _ => t end.
(* a named helper is closed by its lemma in the database [hn] (or by a hypothesis, in the inductions below), and unfolded only
   if there is none *)
Create HintDb hn discriminated.
Global Hint Resolve hn_get_cell hn_get_arr hn_get_ctx : hn.
Ltac hnt :=
  repeat lazymatch goal with
  | |- hn ?m =>
    lazymatch m with
    | bind _ _ => apply hn_bind; [ | intros ? ]
    | ret _ => apply hn_ret
    | gets _ => apply hn_gets
    | modify _ => apply hn_modify; intros ?; repeat split
    | failm _ => apply hn_failm; okf
    | crash _ => apply hn_failm; okf
    | unsupported _ => apply hn_failm; okf
    | runtime_error_cls _ _ _ => apply hn_runtime_error_cls
    | rt_error _ _ => apply hn_runtime_error_cls
    | not_defined_error _ _ => apply hn_runtime_error_cls
    | array_direct_error _ _ => apply hn_runtime_error_cls
    | mapM _ _ => apply hn_mapM; intros ?
    | iterM _ _ => apply hn_iterM; intros ?
    | all2M _ _ _ => apply hn_all2M; intros ? ?
    | if ?c then _ else _ => destruct c
    | match ?x with _ => _ end => destruct x
    | let _ := _ in _ => cbv zeta
    | fst (match ?x with _ => _ end) => destruct x; cbn [fst snd]
    | _ => first [ solve [auto 1 with hn nocore] | let h := head_of m in unfold h ]
    end
  end.

Lemma hn_root_of_aux fuel : forall id, hn (root_of_aux fuel id).
Proof. induction fuel as [|f IH]; intros id; cbn [root_of_aux]; hnt. Qed.
Global Hint Resolve hn_root_of_aux : hn.
Lemma hn_nonrec_ancestor_aux fuel : forall id, hn (nonrec_ancestor_aux fuel id).
Proof. induction fuel as [|f IH]; intros id; cbn [nonrec_ancestor_aux]; hnt. Qed.
Lemma hn_on_chain_aux fuel : forall id target, hn (on_chain_aux fuel id target).
Proof. induction fuel as [|f IH]; intros id target; cbn [on_chain_aux]; hnt. Qed.
Lemma hn_lookup_def_aux {D} (table : ctx -> list (str * D)) fuel : forall c name global, hn (lookup_def_aux table fuel c name global).
Proof. induction fuel as [|f IH]; intros c name global; cbn [lookup_def_aux]; hnt. Qed.
Global Hint Resolve hn_nonrec_ancestor_aux hn_on_chain_aux hn_lookup_def_aux : hn.
Lemma hn_abs_val fuel : forall c p, hn (abs_val fuel c p).
Proof. induction fuel as [|f IH]; intros c p; destruct p; cbn [abs_val]; hnt. Qed.
Lemma hn_same_layout fuel : forall a b, hn (same_layout fuel a b).
Proof. induction fuel as [|f IH]; intros a b; cbn [same_layout]; hnt. Qed.
Global Hint Resolve hn_abs_val hn_same_layout : hn.
Lemma hn_arr_layout fuel a1 a2 : hn (arr_layout (same_layout fuel) a1 a2).
Proof. hnt. Qed.
Global Hint Resolve hn_arr_layout : hn.

Definition valok (v : payload) (s : st) : Prop := forall tn c, v = PRec tn c -> ctxkind c true s.
Lemma stable_valok v : stable (valok v).
Proof. intros s s' H V tn c E. eapply stable_ctxkind; eauto. Qed.
Lemma valok_nonrec v s : (forall tn c, v <> PRec tn c) -> valok v s.
Proof. intros H tn c E. exfalso. eapply H; eauto. Qed.
(* the value is of the kind, and of the user type, the cell's declared type says *)
Definition fits (id : N) (v : payload) (s : st) : Prop := exists cl, nm_get id (s_cells s) = Some cl /\ payload_kind v = dk (c_type cl) /\ named_ok v (c_type cl).
Lemma stable_fits id v : stable (fits id v).
Proof. intros s s' H [cl [E [F G]]]. destruct (k_meta _ _ H id cl E) as [cl' [E' [_ [M2 _]]]]. exists cl'. split; [exact E'|]. rewrite M2. split; assumption. Qed.
Lemma cellmeta_fits id cl v s : cellmeta id cl s -> payload_kind v = dk (c_type cl) -> named_ok v (c_type cl) -> fits id v s.
Proof. intros [c' [E [_ [M2 _]]]] H G. exists c'. split; [exact E|]. rewrite M2. split; assumption. Qed.
Lemma named_ok_prim v ty : pname v = None -> named_ok v ty.
Proof. intros H tn E. congruence. Qed.
(* a result: a record value refers to a record context, and the value is of the kind its result type says *)
Definition resok (r : result) (s : st) : Prop := forall p, r_val r = Some p -> valok p s /\ payload_kind p = dk (r_type r) /\ named_ok p (r_type r).
Lemma stable_resok r : stable (resok r).
Proof. intros s s' H R p E. destruct (R p E) as [A B]. split; [eapply stable_valok; eauto|exact B]. Qed.
Definition nonconst (id : N) (s : st) : Prop := exists cl, nm_get id (s_cells s) = Some cl /\ c_const cl = false.
Lemma stable_nonconst id : stable (nonconst id).
Proof. intros s s' H [cl [E C]]. destruct (k_meta _ _ H id cl E) as [cl' [E' [_ [_ [M3 _]]]]]. exists cl'. split; [exact E'|congruence]. Qed.
Lemma nonconst_wr id s : nonconst id s -> wr id s.
Proof. intros [cl [E C]]. exists cl. split; [exact E|left; exact C]. Qed.
Lemma stable_Forall {A} (F : A -> st -> Prop) l : (forall x, stable (F x)) -> stable (fun s => Forall (fun x => F x s) l).
Proof. intros H s s' HK HF. eapply Forall_impl; [|exact HF]. intros x Hx. eapply H; eauto. Qed.

(* reading a cell: its name, type, flag and owner are known from now on; what it holds satisfies the invariant's clause *)
Lemma tr_get_cell (P : st -> Prop) id :
  tr P (get_cell id) (fun cl s => cellmeta id cl s /\ valok (c_val cl) s /\ payload_kind (c_val cl) = dk (c_type cl) /\ named_ok (c_val cl) (c_type cl)).
Proof.
  intros s HI HP. unfold get_cell. destruct (nm_get id (s_cells s)) as [cl|] eqn:E; cbn [fst snd]; (split; [exact HI|]; split; [apply K_refl|]); [|okf].
  split; [exists cl; split; [exact E|apply same_meta_refl]|]. split; [|split; [eapply (i_kind s HI); eauto|eapply (i_name s HI); eauto]]. intros tn c Ev. eapply (i_recval s HI); eauto.
Qed.
(* the last conjunct is what [dt_eq_namesagree] needs of two types that compared equal *)
Definition hastype (e : N) (ty : dtype) (s : st) : Prop := exists cl, nm_get e (s_cells s) = Some cl /\ c_type cl = ty /\ (named_kind (dk ty) = true -> dname ty <> None).
Lemma stable_hastype e ty : stable (hastype e ty).
Proof. intros s s' H [cl [E [T Nm]]]. destruct (k_meta _ _ H e cl E) as [cl' [E' [_ [M2 _]]]]. exists cl'. split; [exact E'|]. split; [congruence|exact Nm]. Qed.
Lemma Inv_type_named s id cl : Inv s -> nm_get id (s_cells s) = Some cl -> named_kind (dk (c_type cl)) = true -> dname (c_type cl) <> None.
Proof.
  intros HI E Hk. rewrite <- (i_kind s HI id cl E) in Hk. destruct (kind_pname _ Hk) as [tn Hp]. rewrite (i_name s HI id cl E tn Hp). discriminate.
Qed.
Definition arris (id : N) (ar : arr) (s : st) : Prop := nm_get id (s_arrs s) = Some ar.
Lemma stable_arris id ar : stable (arris id ar).
Proof. intros s s' H E. apply (k_arr _ _ H). exact E. Qed.
(* reading an array: its elements may be written and have its element type *)
Lemma tr_get_arr (P : st -> Prop) id :
  tr P (get_arr id) (fun ar s => Forall (fun e => nonconst e s) (a_elems ar) /\ Forall (fun e => hastype e (a_type ar) s) (a_elems ar) /\ arris id ar s).
Proof.
  intros s HI HP. unfold get_arr. destruct (nm_get id (s_arrs s)) as [ar|] eqn:E; cbn [fst snd]; (split; [exact HI|]; split; [apply K_refl|]); [|okf].
  split; [|split; [|exact E]]; apply Forall_forall; intros e He; destruct (i_elems s HI id ar e E He) as [cl [Ecl [C T]]]; exists cl; [auto|].
  split; [exact Ecl|]. split; [exact T|]. rewrite <- T. eapply Inv_type_named; eauto.
Qed.
Definition retok (cx : ctx) (s : st) : Prop := forall r, x_retval cx = Some r -> resok r s.
Lemma stable_retok cx : stable (retok cx).
Proof. intros s s' H R r E1. eapply stable_resok; eauto. Qed.
(* reading a context: its kind is known; the variables of a record's context may be written; a kept return value is a proper value *)
Lemma tr_get_ctx (P : st -> Prop) id :
  tr P (get_ctx id) (fun cx s => ctxkind id (x_isrec cx) s /\ (x_isrec cx = true -> Forall (fun nv : str * N => wr (snd nv) s) (x_vars cx)) /\ retok cx s).
Proof.
  intros s HI HP. unfold get_ctx. destruct (nm_get id (s_ctxs s)) as [cx|] eqn:E; cbn [fst snd]; (split; [exact HI|]; split; [apply K_refl|]); [|okf].
  split; [exists cx; auto|]. split.
  - intros Hr. apply Forall_forall. intros [nm v] Hin.
    destruct (i_recvars s HI id cx nm v E Hr Hin) as [cl [Ecl Ho]]. exists cl. split; [exact Ecl|]. right. right. exact Ho.
  - intros r E1 p E2. split; [|split; [eapply (i_retkind s HI); eauto|eapply (i_retname s HI); eauto]]. intros tn c ->. eapply (i_retval s HI); eauto.
Qed.

(* Beside "identifiers lie below the counter" the invariant says, of every cell, array and context that exists, something that stays
   true whatever runs (a stable fact).  So a step keeps the invariant if it keeps what existed (K) and every entry it wrote
   satisfies its clause in the new state (Inv_step). *)
Definition ownrec (id : N) (s : st) : Prop := exists cl, nm_get id (s_cells s) = Some cl /\ rec_ctx s (c_owner cl).
Lemma stable_ownrec id : stable (ownrec id).
Proof.
  intros s s' H [cl [E R]]. destruct (k_meta _ _ H id cl E) as [cl' [E' [_ [_ [_ M4]]]]]. exists cl'. split; [exact E'|]. rewrite M4. eapply (ctxkind_K _ true); eauto.
Qed.
Definition cell_ok (cl : cell) (s : st) : Prop := valok (c_val cl) s /\ payload_kind (c_val cl) = dk (c_type cl) /\ named_ok (c_val cl) (c_type cl).
Definition elem_ok (ty : dtype) (e : N) (s : st) : Prop := exists cl, nm_get e (s_cells s) = Some cl /\ c_const cl = false /\ c_type cl = ty.
Definition arr_ok (ar : arr) (s : st) : Prop := Forall (fun e => elem_ok (a_type ar) e s) (a_elems ar).
Definition ctx_ok (cx : ctx) (s : st) : Prop := (x_isrec cx = true -> Forall (fun nv : str * N => ownrec (snd nv) s) (x_vars cx)) /\ retok cx s.
Lemma stable_elem_ok ty e : stable (elem_ok ty e).
Proof. intros s s' H [cl [E [C T]]]. destruct (k_meta _ _ H e cl E) as [cl' [E' [_ [M2 [M3 _]]]]]. exists cl'. split; [exact E'|]. split; congruence. Qed.
Lemma stable_impl (X : Prop) F : stable F -> stable (fun s => X -> F s).
Proof. intros H s s' HK HF x. eapply H; eauto. Qed.
Lemma stable_cell_ok cl : stable (cell_ok cl).
Proof. repeat apply stable_and; first [apply stable_valok | apply stable_pure]. Qed.
Lemma stable_arr_ok ar : stable (arr_ok ar).
Proof. apply stable_Forall. intros e. apply stable_elem_ok. Qed.
Lemma stable_ctx_ok cx : stable (ctx_ok cx).
Proof. apply stable_and; [apply stable_impl, stable_Forall; intros nv; apply stable_ownrec|apply stable_retok]. Qed.

Lemma Inv_entries s : Inv s <->
  hb s /\ (forall id cl, nm_get id (s_cells s) = Some cl -> cell_ok cl s) /\
  (forall a ar, nm_get a (s_arrs s) = Some ar -> arr_ok ar s) /\ (forall c cx, nm_get c (s_ctxs s) = Some cx -> ctx_ok cx s).
Proof.
  split.
  - intros [A B C D E IK IR IN IRN]. split; [exact A|]. split; [|split].
    + intros id cl Ecl. split; [intros tn c Ev; eapply D; eauto|split; [eapply IK|eapply IN]; eauto].
    + intros a ar Ea. apply Forall_forall. intros e He. exact (C a ar e Ea He).
    + intros c cx Ec. split.
      * intros Hr. apply Forall_forall. intros [nm v] Hin. exact (B c cx nm v Ec Hr Hin).
      * intros r Er p Ev. split; [intros tn k ->; eapply E; eauto|split; [eapply IR|eapply IRN]; eauto].
  - intros [A [HC [HA HX]]]. constructor; [exact A| | | | | | | |].
    + intros rc cx nm id Erc Hr Hin. destruct (HX rc cx Erc) as [H _]. specialize (H Hr). rewrite Forall_forall in H. exact (H (nm, id) Hin).
    + intros a ar e Ea He. specialize (HA a ar Ea). unfold arr_ok in HA. rewrite Forall_forall in HA. exact (HA e He).
    + intros id cl tn c Ecl Ev. exact (proj1 (HC id cl Ecl) tn c Ev).
    + intros id cx r tn c Ecx Er Ev. exact (proj1 (proj2 (HX id cx Ecx) r Er _ Ev) tn c eq_refl).
    + intros id cl Ecl. apply (HC id cl Ecl).
    + intros id cx r p Ecx Er Ev. apply (proj2 (HX id cx Ecx) r Er p Ev).
    + intros id cl Ecl. apply (HC id cl Ecl).
    + intros id cx r p Ecx Er Ev. apply (proj2 (HX id cx Ecx) r Er p Ev).
Qed.
Lemma Inv_step s s' : Inv s -> K s s' -> hb s' ->
  (forall id cl, nm_get id (s_cells s') = Some cl -> nm_get id (s_cells s) = Some cl \/ cell_ok cl s') ->
  (forall a ar, nm_get a (s_arrs s') = Some ar -> nm_get a (s_arrs s) = Some ar \/ arr_ok ar s') ->
  (forall c cx, nm_get c (s_ctxs s') = Some cx -> nm_get c (s_ctxs s) = Some cx \/ ctx_ok cx s') -> Inv s'.
Proof.
  intros HI HK Hb HC HA HX. apply Inv_entries in HI. destruct HI as [_ [IC [IA IX]]]. apply Inv_entries. split; [exact Hb|]. split; [|split].
  - intros id cl E. destruct (HC id cl E) as [E0|H]; [eapply stable_cell_ok; eauto|exact H].
  - intros a ar E. destruct (HA a ar E) as [E0|H]; [eapply stable_arr_ok; eauto|exact H].
  - intros c cx E. destruct (HX c cx E) as [E0|H]; [eapply stable_ctx_ok; eauto|exact H].
Qed.
Lemma put_other {A} (m : nmap A) j x i y : nm_get i (nm_put j x m) = Some y -> nm_get i m = Some y \/ (i = j /\ y = x).
Proof.
  intros E. destruct (N.eq_dec j i) as [<-|Hne]; [rewrite nm_get_put_same in E; inversion E; auto|rewrite nm_get_put_other in E by exact Hne; auto].
Qed.

Lemma plain_ctx_same_ctxs s s' c : s_ctxs s' = s_ctxs s -> plain_ctx s c -> plain_ctx s' c.
Proof. intros E [cx H]. exists cx. rewrite E. exact H. Qed.

Lemma tr_set_cell_val (P : st -> Prop) id v : (forall s, P s -> wr id s /\ valok v s /\ fits id v s) -> tr P (set_cell_val id v) (fun _ _ => True).
Proof.
  intros Hpre s HI HP. destruct (Hpre s HP) as [[c0 [E0 U0]] [HV [c1 [E1 [HF HN]]]]]. assert (c1 = c0) by congruence. subst c1. unfold set_cell_val, bind, get_cell. rewrite E0. cbn [fst snd put_cell modify].
  set (c' := mkCell (c_name c0) (c_type c0) (c_const c0) (c_owner c0) v).
  set (s' := set_cells (nm_put id c' (s_cells s)) s).
  assert (HK : K s s').
  { constructor; cbn [s' s_next s_cells s_ctxs s_arrs set_cells]; [lia| | | |].
    - intros j cl Ej. destruct (N.eq_dec id j) as [<-|Hne].
      + exists c'. split; [apply nm_get_put_same|]. assert (cl = c0) by congruence. subst cl. repeat split.
      + exists cl. split; [rewrite nm_get_put_other by exact Hne; exact Ej|apply same_meta_refl].
    - intros j cx Ej. exists cx. split; [exact Ej|reflexivity].
    - intros j a Ej. exact Ej.
    - intros j cl Ej Pj. destruct (N.eq_dec id j) as [<-|Hne]; [|rewrite nm_get_put_other by exact Hne; exact Ej].
      exfalso. assert (cl = c0) by congruence. subst cl. exact (unprotected_not_protected s c0 U0 Pj). }
  split; [|split; [exact HK|okf]]. apply (Inv_step s s' HI HK).
  - destruct (i_hb s HI) as [H1 [H2 H3]]. split; [|split; assumption]. intros j x Ex. destruct (put_other _ _ _ _ _ Ex) as [E|[-> _]]; [apply (H1 j x E)|apply (H1 id c0 E0)].
  - intros j cl Ej. destruct (put_other _ _ _ _ _ Ej) as [E|[_ ->]]; [left; exact E|right]. split; [eapply stable_valok; eauto|split; [exact HF|exact HN]].
  - intros a ar E. left. exact E.
  - intros c cx E. left. exact E.
Qed.

Lemma plain_ctx_ext s s' c : ext s s' -> plain_ctx s c -> plain_ctx s' c.
Proof. intros [_ [_ E]] [cx [H F]]. exists cx. split; [apply E; exact H|exact F]. Qed.

Lemma K_of_ext s s' : ext s s' -> s_next s <= s_next s' -> K s s'.
Proof.
  intros [E1 [E2 E3]] Hn. constructor; [exact Hn| | | |].
  - intros id cl E. exists cl. split; [apply E1; exact E|apply same_meta_refl].
  - intros id cx E. exists cx. split; [apply E3; exact E|reflexivity].
  - intros id a E. apply E2. exact E.
  - intros id cl E _. apply E1. exact E.
Qed.

Lemma alloc_cell_inv cl s : Inv s -> cell_ok cl s -> Inv (alloc_cell cl s) /\ K s (alloc_cell cl s) /\ cellmeta (s_next s) cl (alloc_cell cl s).
Proof.
  intros HI Hok. destruct (alloc_cell_spec cl s (i_hb s HI)) as [Hb' [[Hext [_ Hn]] Hg]].
  assert (HK : K s (alloc_cell cl s)) by (apply K_of_ext; auto).
  split; [|split; [exact HK|exists cl; split; [exact Hg|apply same_meta_refl]]]. apply (Inv_step _ _ HI HK Hb').
  - intros j x Ej. destruct (put_other _ _ _ _ _ Ej) as [E|[_ ->]]; [left; exact E|right; eapply stable_cell_ok; eauto].
  - intros a ar E. left. exact E.
  - intros c cx E. left. exact E.
Qed.
Lemma tr_alloc_cell {B} (P : st -> Prop) cl (k : N -> M B) R : stable P -> (forall s, P s -> cell_ok cl s) ->
  (forall id, stable (fun s => P s /\ cellmeta id cl s) -> tr (fun s => P s /\ cellmeta id cl s) (k id) R) ->
  tr P (id <- fresh ;; put_cell id cl ;;; k id) R.
Proof.
  intros SP HV Hk s HI HP. unfold bind, fresh, put_cell, modify. cbn [fst snd].
  change (set_cells _ _) with (alloc_cell cl s).
  destruct (alloc_cell_inv cl s HI (HV s HP)) as [I1 [K1 M1]].
  destruct (Hk (s_next s) (stable_and _ _ SP (stable_cellmeta _ cl)) (alloc_cell cl s) I1 (conj (SP _ _ K1 HP) M1)) as [I2 [K2 Q2]].
  split; [exact I2|]. split; [eapply K_trans; eauto|exact Q2].
Qed.

Lemma alloc_arr_inv a s : Inv s -> Forall (fun e => nonconst e s /\ hastype e (a_type a) s) (a_elems a) -> Inv (alloc_arr a s) /\ K s (alloc_arr a s).
Proof.
  intros HI HE. destruct (alloc_arr_spec a s (i_hb s HI)) as [Hb' [[Hext [_ Hn]] Hg]].
  assert (HK : K s (alloc_arr a s)) by (apply K_of_ext; auto).
  split; [|exact HK]. apply (Inv_step _ _ HI HK Hb').
  - intros c cl E. left. exact E.
  - intros j ar Ej. destruct (put_other _ _ _ _ _ Ej) as [E|[_ ->]]; [left; exact E|right]. eapply stable_arr_ok; [exact HK|].
    eapply Forall_impl; [|exact HE]. intros e [[cl [E1 C1]] [cl2 [E2 [T2 _]]]]. exists cl. split; [exact E1|]. split; [exact C1|congruence].
  - intros c cx E. left. exact E.
Qed.
Lemma tr_alloc_arr {B} (P : st -> Prop) a (k : N -> M B) R : stable P ->
  (forall s, P s -> Forall (fun e => nonconst e s /\ hastype e (a_type a) s) (a_elems a)) ->
  (forall id, tr P (k id) R) ->
  tr P (id <- fresh ;; put_arr id a ;;; k id) R.
Proof.
  intros SP HV Hk s HI HP. unfold bind, fresh, put_arr, modify. cbn [fst snd].
  change (set_arrs _ _) with (alloc_arr a s).
  destruct (alloc_arr_inv a s HI (HV s HP)) as [I1 K1].
  destruct (Hk (s_next s) (alloc_arr a s) I1 (SP _ _ K1 HP)) as [I2 [K2 Q2]].
  split; [exact I2|]. split; [eapply K_trans; eauto|exact Q2].
Qed.

Lemma alloc_ctx_inv cx s : Inv s -> x_vars cx = [] -> x_retval cx = None -> Inv (alloc_ctx cx s) /\ K s (alloc_ctx cx s) /\ ctxkind (s_next s) (x_isrec cx) (alloc_ctx cx s).
Proof.
  intros HI HE HR. destruct (alloc_ctx_spec cx s (i_hb s HI)) as [Hb' [[Hext [_ Hn]] Hg]].
  assert (HK : K s (alloc_ctx cx s)) by (apply K_of_ext; auto).
  split; [|split; [exact HK|exists cx; auto]]. apply (Inv_step _ _ HI HK Hb').
  - intros c cl E. left. exact E.
  - intros a ar E. left. exact E.
  - intros j x Ej. destruct (put_other _ _ _ _ _ Ej) as [E|[_ ->]]; [left; exact E|right]. split; [rewrite HE; constructor|intros r Er; congruence].
Qed.
Lemma tr_alloc_ctx {B} (P : st -> Prop) cx (k : N -> M B) R : stable P -> x_vars cx = [] -> x_retval cx = None ->
  (forall id, tr (fun s => P s /\ ctxkind id (x_isrec cx) s) (k id) R) ->
  tr P (id <- fresh ;; put_ctx id cx ;;; k id) R.
Proof.
  intros SP HV HR Hk s HI HP. unfold bind, fresh, put_ctx, modify. cbn [fst snd].
  change (set_ctxs _ _) with (alloc_ctx cx s).
  destruct (alloc_ctx_inv cx s HI HV HR) as [I1 [K1 M1]].
  destruct (Hk (s_next s) (alloc_ctx cx s) I1 (conj (SP _ _ K1 HP) M1)) as [I2 [K2 Q2]].
  split; [exact I2|]. split; [eapply K_trans; eauto|exact Q2].
Qed.

Lemma tr_upd_ctx (P : st -> Prop) c f : stable P ->
  (forall s cx, P s -> nm_get c (s_ctxs s) = Some cx -> ctx_ok cx s -> x_isrec (f cx) = x_isrec cx /\ ctx_ok (f cx) s) ->
  tr P (upd_ctx c f) (fun _ s => P s).
Proof.
  intros SP Hf s HI HP. unfold upd_ctx, bind, get_ctx. destruct (nm_get c (s_ctxs s)) as [cx|] eqn:E; cbn [fst snd put_ctx modify].
  2:{ split; [exact HI|]. split; [apply K_refl|okf]. }
  destruct (Hf s cx HP E (proj2 (proj2 (proj2 (proj1 (Inv_entries s) HI))) c cx E)) as [Hk Hok].
  set (s' := set_ctxs (nm_put c (f cx) (s_ctxs s)) s).
  assert (HK : K s s').
  { constructor; cbn [s' s_next s_cells s_ctxs s_arrs set_ctxs]; [lia| | | |].
    - intros j cl Ej. exists cl. split; [exact Ej|apply same_meta_refl].
    - intros j x Ej. destruct (N.eq_dec c j) as [<-|Hne].
      + exists (f cx). split; [apply nm_get_put_same|]. assert (x = cx) by congruence. subst x. exact Hk.
      + exists x. split; [rewrite nm_get_put_other by exact Hne; exact Ej|reflexivity].
    - intros j a Ej. exact Ej.
    - intros j cl Ej _. exact Ej. }
  split; [|split; [exact HK|eapply SP; eauto]]. apply (Inv_step s s' HI HK).
  - destruct (i_hb s HI) as [H1 [H2 H3]]. split; [exact H1|]. split; [exact H2|]. intros j x Ex. destruct (put_other _ _ _ _ _ Ex) as [E'|[-> _]]; [apply (H3 j x E')|apply (H3 c cx E)].
  - intros j cl E'. left. exact E'.
  - intros a ar E'. left. exact E'.
  - intros j x Ej. destruct (put_other _ _ _ _ _ Ej) as [E'|[_ ->]]; [left; exact E'|right; eapply stable_ctx_ok; eauto].
Qed.
(* for the updates of a context's arrays, types and call site *)
Lemma tr_upd_ctx_keepvars (P : st -> Prop) c f : stable P -> (forall k, x_vars (f k) = x_vars k /\ x_isrec (f k) = x_isrec k /\ x_retval (f k) = x_retval k) ->
  tr P (upd_ctx c f) (fun _ s => P s).
Proof.
  intros SP Hf. apply tr_upd_ctx; [exact SP|]. intros s cx _ _ Hok. destruct (Hf cx) as [F1 [F2 F3]]. split; [exact F2|].
  unfold ctx_ok, retok. rewrite F1, F2, F3. exact Hok.
Qed.
(* recording the value of RETURN *)
Lemma tr_set_retval (P : st -> Prop) c r : stable P -> (forall s, P s -> resok r s) -> tr P (upd_ctx c (ctx_with_retval (Some r))) (fun _ s => P s).
Proof.
  intros SP Hr. apply tr_upd_ctx; [exact SP|]. intros s cx HP _ [Hv _]. split; [reflexivity|]. split; [exact Hv|].
  intros r0 Er. cbn in Er. inversion Er; subst r0. exact (Hr s HP).
Qed.
Lemma tr_add_var (P : st -> Prop) c name id : stable P ->
  (forall s, P s -> forall cx, nm_get c (s_ctxs s) = Some cx -> x_isrec cx = true -> ownrec id s) ->
  tr P (add_var c name id) (fun _ s => P s).
Proof.
  intros SP Hpre. apply tr_upd_ctx; [exact SP|]. intros s cx HP E [Hv Hr]. split; [reflexivity|]. split; [|exact Hr].
  intros Hk. cbn [x_vars ctx_with_vars]. apply Forall_app. split; [exact (Hv Hk)|]. constructor; [|constructor]. exact (Hpre s HP cx E Hk).
Qed.

Lemma tr_mapM {A B} (P : st -> Prop) (f : A -> M B) (Q : A -> B -> st -> Prop) l : stable P ->
  (forall x y, stable (Q x y)) -> (forall x, In x l -> tr P (f x) (Q x)) ->
  tr P (mapM f l) (fun ys s => Forall2 (fun x y => Q x y s) l ys).
Proof.
  intros SP SQ. induction l as [|x r IH]; intros H; cbn [mapM].
  - eapply tr_post; [apply tr_ret|]. intros a s [-> _]. constructor.
  - eapply tr_bind; [exact SP|apply H; left; reflexivity|]. intros y.
    eapply tr_bind; [apply stable_and; [exact SP|apply SQ]| |].
    + eapply tr_pre; [|apply IH; intros z Hz; apply H; right; exact Hz]. intros s0 [HA _]. exact HA.
    + intros ys. eapply tr_post; [apply tr_ret|]. intros a s [-> [[_ Hy] Hys]]. constructor; assumption.
Qed.
Lemma tr_iterM {A} (P : st -> Prop) (f : A -> M unit) l : stable P -> (forall x, In x l -> tr P (f x) (fun _ _ => True)) ->
  tr P (iterM f l) (fun _ _ => True).
Proof.
  intros SP. induction l as [|x r IH]; intros H; cbn [iterM]; [eapply tr_true; apply tr_ret|].
  eapply tr_bind; [exact SP|apply H; left; reflexivity|]. intros u. eapply tr_pre; [|apply IH; intros z Hz; apply H; right; exact Hz]. intros s0 [HA _]. exact HA.
Qed.
Lemma tr_zipM_pairs {A B} (P : st -> Prop) (f : A -> B -> M unit) l1 : forall l2, stable P ->
  (forall x y, In (x, y) (combine l1 l2) -> tr P (f x y) (fun _ _ => True)) -> tr P (zipM f l1 l2) (fun _ _ => True).
Proof.
  induction l1 as [|x r IH]; intros l2 SP H; cbn [zipM]; [eapply tr_true; apply tr_ret|].
  destruct l2 as [|y r2]; [(apply tr_failm; okf)|].
  eapply tr_bind; [exact SP|apply H; left; reflexivity|]. intros u. eapply tr_pre; [|apply IH; [exact SP|intros a b Ha; apply H; right; exact Ha]]. intros s0 [HA _]. exact HA.
Qed.
Lemma tr_zipM {A B} (P : st -> Prop) (f : A -> B -> M unit) l1 l2 : stable P ->
  (forall x y, In x l1 -> tr P (f x y) (fun _ _ => True)) -> tr P (zipM f l1 l2) (fun _ _ => True).
Proof. intros SP H. apply tr_zipM_pairs; [exact SP|]. intros x y Hin. apply H. eapply in_combine_l; eauto. Qed.
Lemma tr_repeatM {A} (P : st -> Prop) (m : M A) (Q : A -> st -> Prop) k : stable P -> (forall y, stable (Q y)) -> tr P m Q ->
  tr P (repeatM k m) (fun ys s => Forall (fun y => Q y s) ys).
Proof.
  intros SP SQ H. induction k as [|k IH]; cbn [repeatM].
  - eapply tr_post; [apply tr_ret|]. intros a s [-> _]. constructor.
  - eapply tr_bind; [exact SP|exact H|]. intros y. eapply tr_bind; [apply stable_and; [exact SP|apply SQ]| |].
    + eapply tr_pre; [|exact IH]. intros s0 [HA _]. exact HA.
    + intros ys. eapply tr_post; [apply tr_ret|]. intros a s [-> [[_ Hy] Hys]]. constructor; assumption.
Qed.

Lemma ctxkind_unique c b b' s : ctxkind c b s -> ctxkind c b' s -> b = b'.
Proof. intros [x [E F]] [y [E' F']]. congruence. Qed.
Lemma cellmeta_ownrec id cl s : cellmeta id cl s -> ctxkind (c_owner cl) true s -> ownrec id s.
Proof. intros [c' [E [_ [_ [_ M4]]]]] Hk. exists c'. split; [exact E|]. rewrite M4. exact Hk. Qed.
Lemma cellmeta_nonconst id cl s : cellmeta id cl s -> c_const cl = false -> nonconst id s.
Proof. intros [c' [E [_ [_ [M3 _]]]]] Hc. exists c'. split; [exact E|congruence]. Qed.

Lemma stable_Forall2 {A B} (F : A -> B -> st -> Prop) l l' : (forall x y, stable (F x y)) -> stable (fun s => Forall2 (fun x y => F x y s) l l').
Proof. intros H s s' HK HF. induction HF; constructor; auto. eapply H; eauto. Qed.

Create HintDb stab discriminated.
Global Hint Resolve stable_true stable_and stable_pure stable_impl stable_cellmeta stable_ctxkind stable_wr stable_valok stable_fits stable_resok
  stable_nonconst stable_Forall stable_Forall2 stable_hastype stable_arris stable_retok stable_ownrec : stab.
(* the depth bounds how many conjuncts a precondition may have gathered along a sequence *)
Ltac stab := solve [auto 40 with stab nocore].

Lemma tr_false {A} (P : st -> Prop) (m : M A) (Q : A -> st -> Prop) : (forall s, P s -> False) -> tr P m Q.
Proof. intros H s _ HP. exfalso. eapply H; eauto. Qed.
(* a branch that is taken only when a cell holds an object of another class than its type says *)
Ltac bad_contra :=
  apply tr_false; let s0 := fresh "s0" in let H0 := fresh "H0" in intros s0 H0; decompose [and] H0; unfold dt_is in *;
  repeat match goal with H : negb _ = false |- _ => apply negb_false_iff in H | H : dk_eqb _ _ = true |- _ => apply dk_eqb_eq in H end;
  repeat match goal with Hv : c_val ?cl = _, Hk : context [c_val ?cl] |- _ => rewrite Hv in Hk end;
  repeat match goal with H : payload_kind _ = _ |- _ => progress cbn in H end;
  congruence.

Lemma tr_catch_cls {A} (P : st -> Prop) (m : M A) (Q : A -> st -> Prop) want h : stable P -> tr P m Q -> (forall d, tr P (h (FErr d)) Q) -> tr P (catch_cls m want h) Q.
Proof.
  intros SP Hm Hh. unfold catch_cls. apply tr_catch; [exact SP|exact Hm|]. intros f m' E.
  destruct f; try discriminate. destruct (want (d_cls d)); [|discriminate]. inversion E; subst. apply Hh.
Qed.
Lemma tr_ret_none (P : st -> Prop) : tr P (ret res_none) (fun r s => resok r s).
Proof. eapply tr_post; [apply tr_ret|]. intros a s [-> _] p E. discriminate E. Qed.

Lemma tr_assoc {A B C} (P : st -> Prop) (a : M A) (f : A -> M B) (k : B -> M C) (R : C -> st -> Prop) :
  tr P (bind a (fun x => bind (f x) k)) R -> tr P (bind (bind a f) k) R.
Proof.
  intros H s HI HP. specialize (H s HI HP). unfold bind in *. destruct (a s) as [[x|e] s1]; cbn [fst snd] in *; exact H.
Qed.
Lemma tr_ret_bind {A B} (P : st -> Prop) (x : A) (k : A -> M B) (R : B -> st -> Prop) : tr P (k x) R -> tr P (bind (ret x) k) R.
Proof. intros H s HI HP. exact (H s HI HP). Qed.
Lemma tr_fail_bind {A B} (P : st -> Prop) f (k : A -> M B) (R : B -> st -> Prop) : ok_fail f -> tr P (bind (failm f) k) R.
Proof. exact (tr_failm P f R). Qed.
Lemma tr_error_bind {A B} (P : st -> Prop) cls t c (k : A -> M B) (R : B -> st -> Prop) : tr P (bind (runtime_error_cls cls t c) k) R.
Proof.
  intros s HI HP. pose proof (@ro_runtime_error_cls A cls t c s) as H. pose proof (proj2 (@hn_runtime_error_cls A cls t c s)) as N. unfold bind.
  unfold runtime_error_cls in *. destruct ((cx <- get_ctx c ;; _) s) as [[d|f] s1]; cbn [fst snd] in *; subst; (split; [exact HI|]; split; [apply K_refl|exact N]).
Qed.

Lemma tr_bind_catch_cls {A B} (P : st -> Prop) (m : M A) want h (k : A -> M B) (R : B -> st -> Prop) : stable P ->
  tr P (bind m k) R -> (forall d, tr P (bind (h (FErr d)) k) R) -> tr P (bind (catch_cls m want h) k) R.
Proof.
  intros SP Hm Hh s HI HP. specialize (Hm s HI HP). unfold bind, catch_cls, catch in *.
  destruct (m s) as [[a|f] s1]; cbn [fst snd] in *; [exact Hm|].
  destruct Hm as [I1 [K1 O1]].
  destruct f; try (split; [exact I1|]; split; [exact K1|exact O1]).
  destruct (want (d_cls d)); [|split; [exact I1|]; split; [exact K1|exact I]].
  destruct (Hh d s1 I1 (SP _ _ K1 HP)) as [I2 [K2 Q2]]. unfold bind in *.
  split; [exact I2|]. split; [eapply K_trans; eauto|exact Q2].
Qed.

Definition copy_val_tr (f : nat) : Prop := forall (P : st -> Prop) p, stable P -> (forall s, P s -> valok p s) ->
  tr P (copy_val f p) (fun v s => valok v s /\ payload_kind v = payload_kind p /\ pname v = pname p).
Definition copy_ctx_tr (f : nat) : Prop := forall (P : st -> Prop) c, stable P -> (forall s, P s -> ctxkind c true s) -> tr P (copy_ctx f c) (fun c' s => ctxkind c' true s).

Lemma named_ok_pname p q ty : pname q = pname p -> named_ok p ty -> named_ok q ty.
Proof. intros E H tn Hq. apply H. congruence. Qed.
Lemma cellmeta_hastype id cl ty s : cellmeta id cl s -> c_type cl = ty -> (named_kind (dk ty) = true -> dname ty <> None) -> hastype id ty s.
Proof. intros [c' [E [_ [M2 _]]]] T Hn. exists c'. split; [exact E|]. split; [congruence|exact Hn]. Qed.

Lemma copy_tr : forall f, copy_val_tr f /\ copy_ctx_tr f.
Proof.
  induction f as [|f [IHv IHc]].
  - split.
    + intros P p SP HV. destruct p; cbn [copy_val]; try (eapply tr_post; [apply tr_ret|]; intros a0 s0 [-> Hs]; split; [apply valok_nonrec; intros; discriminate|split; reflexivity]). (apply tr_failm; okf).
    + intros P c SP HV. cbn [copy_ctx]. (apply tr_failm; okf).
  - split.
    + intros P p SP HV. destruct p as [| | | | | | | |tn c]; cbn [copy_val]; try (eapply tr_post; [apply tr_ret|]; intros a0 s0 [-> Hs]; split; [apply valok_nonrec; intros; discriminate|split; reflexivity]).
      eapply tr_bind; [exact SP|apply IHc; [exact SP|intros s Hs; eapply HV; eauto]|]. intros c'.
      eapply tr_post; [apply tr_ret|]. intros a s [-> [_ Hk]]. split; [|split; reflexivity]. intros tn' c0 E. inversion E; subst. exact Hk.
    + intros P c SP HV. cbn [copy_ctx].
      eapply tr_bind; [exact SP|apply tr_get_ctx|]. intros cx.
      destruct (x_isrec cx) eqn:Hr; [|apply tr_false; intros s [Hs [Hk _]]; pose proof (ctxkind_unique _ _ _ _ Hk (HV s Hs)) as X; congruence].
      apply tr_alloc_ctx; [stab|reflexivity|reflexivity|]. intros id. change (x_isrec (blank_ctx_like cx)) with (x_isrec cx). rewrite Hr.
      set (P1 := fun s => (P s /\ ctxkind c true s /\ (true = true -> Forall (fun nv : str * N => wr (snd nv) s) (x_vars cx)) /\ retok cx s) /\ ctxkind id true s).
      assert (SP1 : stable P1) by (unfold P1; stab).
      (* one cell: copy the value and allocate the new cell, owned by the new context, with the name and type of the old one *)
      assert (CELL : forall (P2 : st -> Prop) B src (cst : cell -> bool) (k : N -> M B) Q, stable P2 ->
                (forall cl v' nid, tr (fun s => P2 s /\ cellmeta src cl s /\ cellmeta nid (mkCell (c_name cl) (c_type cl) (cst cl) id v') s) (k nid) Q) ->
                tr P2 (cl <- get_cell src ;; v' <- copy_val f (c_val cl) ;; nid <- fresh ;; put_cell nid (mkCell (c_name cl) (c_type cl) (cst cl) id v') ;;; k nid) Q).
      { intros P2 B src cst k Q SP2 Hk. eapply tr_bind; [exact SP2|apply tr_get_cell|]. intros cl.
        eapply tr_bind; [stab|apply IHv; [stab|intros s [_ [_ [Hv _]]]; exact Hv]|]. intros v'.
        apply tr_alloc_cell; [stab|intros s [[_ [_ [_ [Hk0 Hn]]]] [Hv [Hk' Hn']]]; unfold cell_ok; cbn [c_val c_type]; split; [exact Hv|split; [congruence|eapply named_ok_pname; eauto]]|]. intros nid _.
        eapply tr_pre; [|apply (Hk cl v' nid)]. intros s [[[Hs [Hm _]] _] Hn]. auto. }
      eapply tr_bind; [exact SP1| |].
      { apply (tr_mapM P1 _ (fun (nv y : str * N) s => ownrec (snd y) s)); [exact SP1|intros; stab|]. intros nv _.
        apply (CELL P1 _ (snd nv) c_const (fun nid => ret (fst nv, nid))); [exact SP1|]. intros cl v' nid.
        eapply tr_post; [apply tr_ret|]. intros a s [-> [HP1 [_ Hm]]]. cbn [snd].
        eapply cellmeta_ownrec; [exact Hm|]. cbn. apply HP1. }
      intros vars'.
      eapply tr_bind; [stab| |].
      { eapply (tr_mapM _ _ (fun (na y : str * N) (_ : st) => True)); [stab|intros; stab|]. intros na _.
        eapply tr_bind; [stab|apply tr_get_arr|]. intros a.
        eapply tr_bind; [stab| |].
        { eapply (tr_mapM _ _ (fun (e y : N) (s : st) => nonconst y s /\ hastype y (a_type a) s)); [stab|intros; stab|]. intros e Hin.
          apply (CELL _ _ e (fun _ => false) (fun nid => ret nid)); [stab|]. intros cl v' nid.
          eapply tr_post; [apply tr_ret|]. intros a0 s [-> [[_ [_ [HT _]]] [[c' [E' [_ [M2 _]]]] Hm]]]. split; [eapply cellmeta_nonconst; [exact Hm|reflexivity]|].
          rewrite Forall_forall in HT. destruct (HT e Hin) as [cs [Es [Ts Ns]]]. assert (c' = cs) by congruence. subst c'.
          eapply cellmeta_hastype; [exact Hm| |exact Ns]. cbn [c_type]. congruence. }
        intros elems'. apply tr_alloc_arr; [stab| |].
        - intros s [_ HF]. cbn [a_elems a_type]. eapply Forall2_Forall_r; [exact HF|]. intros x y Hy. exact Hy.
        - intros naid. eapply tr_post; [apply tr_ret|]. intros; okf. }
      intros arrs'.
      eapply tr_bind; [stab| |].
      { apply tr_upd_ctx; [stab|]. intros s k [[_ HF] _] _ [_ Hrt]. split; [reflexivity|]. split; [|exact Hrt].
        intros _. cbn [x_vars ctx_with_arrs ctx_with_vars]. eapply Forall2_Forall_r; [exact HF|]. intros x y Hy. exact Hy. }
      intros u. eapply tr_post; [apply tr_ret|]. intros a s [-> [[[[_ Hk] _] _] _]]. exact Hk.
Qed.

Lemma all2M_true {A B} (f : A -> B -> M bool) : (forall x y, ro (f x y)) -> forall l1 l2 s,
  fst (all2M f l1 l2 s) = Ok true -> forall x y, In (x, y) (combine l1 l2) -> fst (f x y s) = Ok true.
Proof.
  intros Hro. induction l1 as [|a r1 IH]; intros l2 s H x y Hin; [contradiction|].
  destruct l2 as [|b r2]; [contradiction|]. cbn [all2M] in H. unfold bind in H.
  pose proof (Hro a b s) as R. destruct (f a b s) as [[ok|e] s1] eqn:E; cbn [fst snd] in *; [|discriminate H]. subst s1.
  destruct ok; [|cbn in H; discriminate H].
  destruct Hin as [Hin|Hin]; [inversion Hin; subst; rewrite E; reflexivity|]. eapply IH; eauto.
Qed.

(* the two anonymous functions inside Heap.same_layout, named (same_layout_unfold ties them to it by computation) *)
Definition field_check (f : nat) (dv sv : str * N) : M bool :=
  d <- get_cell (snd dv) ;; s <- get_cell (snd sv) ;;
  if negb (dt_eq (c_type d) (c_type s)) then ret false
  else if dt_is (c_type d) KRec then
    match c_val d, c_val s with
    | PRec _ x, PRec _ y => same_layout f x y
    | _, _ => crash "get<Composite> on other payload"
    end
  else ret true.
Definition arr_check (f : nat) (da sa : str * N) : M bool :=
  a1 <- get_arr (snd da) ;; a2 <- get_arr (snd sa) ;; arr_layout (same_layout f) a1 a2.
Lemma ro_field_check f dv sv : ro (field_check f dv sv).
Proof.
  unfold field_check. apply ro_bind; [apply ro_get_cell|]. intros d. apply ro_bind; [apply ro_get_cell|]. intros s0.
  apply ro_if; [apply ro_ret|]. apply ro_if; [|apply ro_ret]. destruct (c_val d); try apply ro_crash. destruct (c_val s0); try apply ro_crash. apply ro_same_layout.
Qed.
Lemma ro_arr_check f da sa : ro (arr_check f da sa).
Proof.
  unfold arr_check. apply ro_bind; [apply ro_get_arr|]. intros a1. apply ro_bind; [apply ro_get_arr|]. intros a2. apply ro_arr_layout. apply ro_same_layout.
Qed.
Definition field_types_agree (s : st) (dv sv : str * N) : Prop :=
  exists d s0, nm_get (snd dv) (s_cells s) = Some d /\ nm_get (snd sv) (s_cells s) = Some s0 /\ dt_eq (c_type d) (c_type s0) = true.
Definition arr_types_agree (s : st) (da sa : str * N) : Prop :=
  exists a1 a2, nm_get (snd da) (s_arrs s) = Some a1 /\ nm_get (snd sa) (s_arrs s) = Some a2 /\ dt_eq (a_type a1) (a_type a2) = true.
Lemma field_check_true f dv sv s : fst (field_check f dv sv s) = Ok true -> field_types_agree s dv sv.
Proof.
  unfold field_check, bind, get_cell. intros H. destruct (nm_get (snd dv) (s_cells s)) as [d|] eqn:Ed; cbn [fst snd] in H; [|discriminate H].
  destruct (nm_get (snd sv) (s_cells s)) as [s0|] eqn:Es; cbn [fst snd] in H; [|discriminate H].
  exists d, s0. split; [exact Ed|]. split; [exact Es|]. destruct (dt_eq (c_type d) (c_type s0)); [reflexivity|cbn in H; discriminate H].
Qed.
Lemma arr_check_true f da sa s : fst (arr_check f da sa s) = Ok true -> arr_types_agree s da sa.
Proof.
  unfold arr_check, bind, get_arr. intros H. destruct (nm_get (snd da) (s_arrs s)) as [a1|] eqn:Ed; cbn [fst snd] in H; [|discriminate H].
  destruct (nm_get (snd sa) (s_arrs s)) as [a2|] eqn:Es; cbn [fst snd] in H; [|discriminate H].
  exists a1, a2. split; [exact Ed|]. split; [exact Es|]. unfold arr_layout in H. destruct (dt_eq (a_type a1) (a_type a2)); [reflexivity|cbn in H; discriminate H].
Qed.
Lemma same_layout_unfold f dc sc : same_layout (S f) dc sc =
  (dx <- get_ctx dc ;; sx <- get_ctx sc ;;
   if negb (Nat.eqb (List.length (x_vars dx)) (List.length (x_vars sx))) || negb (Nat.eqb (List.length (x_arrs dx)) (List.length (x_arrs sx))) then ret false else
   ok <- all2M (field_check f) (x_vars dx) (x_vars sx) ;;
   if negb ok then ret false else all2M (arr_check f) (x_arrs dx) (x_arrs sx)).
Proof. reflexivity. Qed.
Lemma same_layout_true f dc sc s : fst (same_layout (S f) dc sc s) = Ok true ->
  exists dx sx, nm_get dc (s_ctxs s) = Some dx /\ nm_get sc (s_ctxs s) = Some sx /\
    (forall dv sv, In (dv, sv) (combine (x_vars dx) (x_vars sx)) -> field_types_agree s dv sv) /\
    (forall da sa, In (da, sa) (combine (x_arrs dx) (x_arrs sx)) -> arr_types_agree s da sa).
Proof.
  rewrite same_layout_unfold. unfold bind at 1, get_ctx at 1. intros H.
  destruct (nm_get dc (s_ctxs s)) as [dx|] eqn:Edx; cbn [fst snd] in H; [|discriminate H].
  unfold bind at 1, get_ctx at 1 in H. destruct (nm_get sc (s_ctxs s)) as [sx|] eqn:Esx; cbn [fst snd] in H; [|discriminate H].
  exists dx, sx. split; [reflexivity|]. split; [reflexivity|].
  destruct (negb _ || negb _); [cbn in H; discriminate H|].
  unfold bind at 1 in H.
  assert (R : ro (all2M (field_check f) (x_vars dx) (x_vars sx))) by (apply ro_all2M; intros; apply ro_field_check).
  pose proof (R s) as Rs. destruct (all2M (field_check f) (x_vars dx) (x_vars sx) s) as [[ok|e] s1] eqn:E1; cbn [fst snd] in *; [|discriminate H]. subst s1.
  destruct ok; [|cbn in H; discriminate H]. cbn [negb] in H. split.
  - intros dv sv Hin. eapply field_check_true. eapply (all2M_true (field_check f)); [intros; apply ro_field_check| |exact Hin]. rewrite E1. reflexivity.
  - intros da sa Hin. eapply arr_check_true. eapply (all2M_true (arr_check f)); [intros; apply ro_arr_check|exact H|exact Hin].
Qed.

(* two types that passed the comparison carry the same name whenever they are user types *)
Definition namesagree (td ts : dtype) : Prop := named_kind (dk ts) = true -> dname td = dname ts.
Lemma dt_eq_namesagree td ts : dt_eq td ts = true -> (named_kind (dk td) = true -> dname td <> None) -> (named_kind (dk ts) = true -> dname ts <> None) -> namesagree td ts.
Proof.
  unfold dt_eq, namesagree. intros H Hd Hs Hk. destruct (dname td) as [x|] eqn:Ed, (dname ts) as [y|] eqn:Es.
  - apply andb_prop in H. destruct H as [_ H]. apply str_eqb_eq in H. congruence.
  - exfalso. apply Hs; auto.
  - apply dk_eqb_eq in H. exfalso. apply Hd; [congruence|reflexivity].
  - reflexivity.
Qed.
Definition typair (d s0 : N) (st0 : st) : Prop :=
  exists cd cs, nm_get d (s_cells st0) = Some cd /\ nm_get s0 (s_cells st0) = Some cs /\ namesagree (c_type cd) (c_type cs) /\ dk (c_type cd) = dk (c_type cs).
Lemma stable_typair d s0 : stable (typair d s0).
Proof.
  intros s s' H [cd [cs [E1 [E2 [Hn Hk]]]]]. destruct (k_meta _ _ H d cd E1) as [cd' [E1' [_ [M2 _]]]]. destruct (k_meta _ _ H s0 cs E2) as [cs' [E2' [_ [N2 _]]]].
  exists cd', cs'. split; [exact E1'|]. split; [exact E2'|]. rewrite M2, N2. split; [exact Hn|exact Hk].
Qed.
Definition nfits (dst : N) (src : payload) (s : st) : Prop := exists cl, nm_get dst (s_cells s) = Some cl /\ named_ok src (c_type cl) /\ payload_kind src = dk (c_type cl).
Lemma stable_nfits dst src : stable (nfits dst src).
Proof. intros s s' H [cl [E [Hn Hk]]]. destruct (k_meta _ _ H dst cl E) as [cl' [E' [_ [M2 _]]]]. exists cl'. split; [exact E'|]. rewrite M2. split; [exact Hn|exact Hk]. Qed.
Lemma typair_nfits d s0 cs st0 : typair d s0 st0 -> cellmeta s0 cs st0 -> payload_kind (c_val cs) = dk (c_type cs) -> named_ok (c_val cs) (c_type cs) -> nfits d (c_val cs) st0.
Proof.
  intros [cd [cs' [E1 [E2 [Hn Hkk]]]]] [c' [E' [_ [M2 _]]]] Hk Hnm. assert (c' = cs') by congruence. subst c'.
  exists cd. split; [exact E1|]. split; [|congruence]. intros tn Hp. rewrite Hn; [rewrite M2; apply Hnm; exact Hp|]. rewrite M2, <- Hk. eapply pname_kind; eauto.
Qed.
Lemma hastype_typair e1 e2 t1 t2 s : hastype e1 t1 s -> hastype e2 t2 s -> dt_eq t1 t2 = true -> typair e1 e2 s.
Proof.
  intros [c1 [E1 [T1 N1]]] [c2 [E2 [T2 N2]]] H. exists c1, c2. split; [exact E1|]. split; [exact E2|]. rewrite T1, T2. split; [apply dt_eq_namesagree; assumption|apply dt_eq_kind; exact H].
Qed.
Definition arrpair (d s0 : N) (st0 : st) : Prop := exists a1 a2, arris d a1 st0 /\ arris s0 a2 st0 /\ dt_eq (a_type a1) (a_type a2) = true.
Lemma stable_arrpair d s0 : stable (arrpair d s0).
Proof. intros s s' H [a1 [a2 [E1 [E2 T]]]]. exists a1, a2. split; [eapply stable_arris; eauto|]. split; [eapply stable_arris; eauto|exact T]. Qed.

Global Hint Resolve stable_typair stable_nfits stable_arrpair : stab.
(* two arrays that passed the comparison: their elements pair up as the fields of two records do *)
Lemma arrpair_elems d s0 a1 a2 s : arrpair d s0 s -> arris d a1 s -> arris s0 a2 s ->
  Forall (fun e => hastype e (a_type a1) s) (a_elems a1) -> Forall (fun e => hastype e (a_type a2) s) (a_elems a2) ->
  Forall (fun p => typair (fst p) (snd p) s) (combine (a_elems a1) (a_elems a2)).
Proof.
  intros [b1 [b2 [B1 [B2 Hdt]]]] E1 E2 HT1 HT2. unfold arris in *. assert (b1 = a1) by congruence. assert (b2 = a2) by congruence. subst b1 b2.
  apply Forall_forall. intros [e1 e2] Hin. cbn [fst snd]. rewrite Forall_forall in HT1, HT2.
  eapply hastype_typair; [apply HT1; eapply in_combine_l; eauto|apply HT2; eapply in_combine_r; eauto|exact Hdt].
Qed.

Definition set_copy_tr (f : nat) : Prop := forall (P : st -> Prop) dst src, stable P -> (forall s, P s -> wr dst s /\ valok src s /\ nfits dst src s) ->
  tr P (set_copy f dst src) (fun _ _ => True).
(* the layout check and, when it succeeds, Context::copyVariableData *)
Definition comp_tr (f : nat) : Prop := forall (P : st -> Prop) dc sc, stable P -> (forall s, P s -> ctxkind dc true s) ->
  tr P (ok <- same_layout f dc sc ;; if ok then copy_var_data f dc sc else rt_error err_token dc) (fun _ _ => True).

Lemma tr_copy_go (P : st -> Prop) (sc : N -> payload -> M unit) : stable P ->
  (forall (P' : st -> Prop) d p, stable P' -> (forall s, P' s -> wr d s /\ valok p s /\ nfits d p s) -> tr P' (sc d p) (fun _ _ => True)) ->
  forall l1 l2, (forall s, P s -> Forall (fun e => wr e s) l1) -> (forall s, P s -> Forall (fun p => typair (fst p) (snd p) s) (combine l1 l2)) ->
  tr P ((fix go (l1 l2 : list N) : M unit :=
           match l1, l2 with
           | e1 :: r1, e2 :: r2 => s <- get_cell e2 ;; sc e1 (c_val s) ;;; go r1 r2
           | _, _ => ret Datatypes.tt
           end) l1 l2) (fun _ _ => True).
Proof.
  intros SP H. induction l1 as [|e1 r1 IH]; intros l2 HF HT; [destruct l2; eapply tr_true; apply tr_ret|].
  destruct l2 as [|e2 r2]; [eapply tr_true; apply tr_ret|].
  eapply tr_bind; [exact SP|apply tr_get_cell|]. intros cl.
  eapply tr_bind; [stab| |].
  - apply H; [stab|]. intros s [Hs [Hm [Hv [Hk Hn]]]]. split; [specialize (HF s Hs); inversion HF; assumption|]. split; [exact Hv|].
    specialize (HT s Hs). cbn [combine] in HT. inversion HT as [|? ? Hp _]; subst. cbn [fst snd] in Hp. eapply typair_nfits; eauto.
  - intros u. eapply tr_pre; [|apply IH].
    + intros s [[Hs _] _]. exact Hs.
    + intros s Hs. specialize (HF s Hs). inversion HF; assumption.
    + intros s Hs. specialize (HT s Hs). cbn [combine] in HT. inversion HT; assumption.
Qed.

Lemma tr_composite_assign (P : st -> Prop) f tn0 dc tn sc : stable P -> comp_tr f -> (forall s, P s -> ctxkind dc true s) ->
  tr P (composite_assign (copy_var_data f) f tn0 dc tn sc) (fun _ _ => True).
Proof.
  intros SP H HV. unfold composite_assign. destruct (str_eqb tn0 tn); [|(apply tr_failm; okf)]. apply H; assumption.
Qed.

Lemma set_copy_both : forall f, set_copy_tr f /\ comp_tr f.
Proof.
  induction f as [|f [IHs IHc]].
  - split; [intros P a b SP HV; cbn [set_copy]; (apply tr_failm; okf)|]. intros P dc sc SP HV s0 HI HP. cbn [same_layout]. unfold bind, failm. cbn [fst snd]. split; [exact HI|]. split; [apply K_refl|okf].
  - split.
    + intros P dst src SP HV. cbn [set_copy]. eapply tr_bind; [exact SP|apply tr_get_cell|]. intros d.
      assert (ELSE : tr (fun s => P s /\ cellmeta dst d s /\ valok (c_val d) s /\ payload_kind (c_val d) = dk (c_type d) /\ named_ok (c_val d) (c_type d))
                        (if dk_eqb (dk (c_type d)) (payload_kind src) then v' <- copy_val f src ;; set_cell_val dst v' else crash "Variable::set: payload reinterpreted as another type")
                        (fun _ _ => True)).
      { destruct (dk_eqb (dk (c_type d)) (payload_kind src)) eqn:Edk.
        2:{ apply tr_false. intros s [Hs [[c' [E' [_ [M2 _]]]] _]]. destruct (HV s Hs) as [_ [_ [cl [Ecl [_ Hkk]]]]]. assert (c' = cl) by congruence. subst c'.
            assert (X : dk_eqb (dk (c_type d)) (payload_kind src) = true) by (apply dk_eqb_eq; congruence). congruence. }
        apply dk_eqb_eq in Edk.
        eapply tr_bind; [stab|apply (proj1 (copy_tr f)); [stab|intros s [Hs _]; apply (HV s Hs)]|]. intros v'.
        apply tr_set_cell_val. intros s [[Hs [Hm _]] [Hv [Hk Hp]]]. destruct (HV s Hs) as [Hw [_ [cl [Ecl [Hnf _]]]]]. split; [exact Hw|]. split; [exact Hv|].
        destruct Hm as [c' [E' [_ [M2 _]]]]. assert (c' = cl) by congruence. subst c'.
        exists cl. split; [exact Ecl|]. split; [congruence|eapply named_ok_pname; eauto]. }
      destruct (c_val d) as [| | | | | | | |tn dc] eqn:Ed; try (rewrite <- Ed in ELSE; exact ELSE).
      destruct src as [| | | | | | | |tn' sc]; try (rewrite <- Ed in ELSE; exact ELSE).
      apply tr_composite_assign; [stab|exact IHc|]. intros s [_ [_ [Hv _]]]. eapply Hv. exact Ed.
    + intros P dc sc SP HV s HI HP. unfold bind.
      pose proof (ro_same_layout (S f) dc sc s) as R. destruct (same_layout (S f) dc sc s) as [[ok|e] s1] eqn:E; cbn [fst snd] in R |- *; subst s1.
      2:{ split; [exact HI|]. split; [apply K_refl|]. pose proof (proj2 (hn_same_layout (S f) dc sc s)) as Nb. rewrite E in Nb. exact Nb. }
      destruct ok; [|exact (tr_rt_error P err_token dc (fun _ _ => True) s HI HP)].
      assert (Et : fst (same_layout (S f) dc sc s) = Ok true) by (rewrite E; reflexivity).
      destruct (same_layout_true f dc sc s Et) as [dx [sx [Edx [Esx [HVars HArrs]]]]].
      destruct (HV s HP) as [dx0 [Edx0 Hrec]]. assert (dx0 = dx) by congruence. subst dx0.
      set (P' := fun st0 => P st0 /\ Forall (fun nv : str * N => wr (snd nv) st0) (x_vars dx)
                            /\ Forall (fun p : (str * N) * (str * N) => typair (snd (fst p)) (snd (snd p)) st0) (combine (x_vars dx) (x_vars sx))
                            /\ Forall (fun p : (str * N) * (str * N) => arrpair (snd (fst p)) (snd (snd p)) st0) (combine (x_arrs dx) (x_arrs sx))).
      assert (SP' : stable P') by (unfold P'; stab).
      assert (HP' : P' s).
      { unfold P'. split; [exact HP|]. split; [|split].
        - apply Forall_forall. intros [nm v] Hin. destruct (i_recvars s HI dc dx nm v Edx Hrec Hin) as [cl [Ecl Ho]]. exists cl. split; [exact Ecl|]. right. right. exact Ho.
        - apply Forall_forall. intros [dv sv] Hin. destruct (HVars dv sv Hin) as [d [s0 [Ed [Es Hdt]]]]. exists d, s0. split; [exact Ed|]. split; [exact Es|].
          split; [apply dt_eq_namesagree; [exact Hdt| |]; intros Hk; eapply Inv_type_named; eauto|apply dt_eq_kind; exact Hdt].
        - apply Forall_forall. intros [da sa] Hin. destruct (HArrs da sa Hin) as [a1 [a2 [E1 [E2 Hdt]]]]. exists a1, a2. split; [exact E1|]. split; [exact E2|exact Hdt]. }
      assert (BODY : tr P' (zipM (fun (dv sv : str * N) => s0 <- get_cell (snd sv) ;; set_copy f (snd dv) (c_val s0)) (x_vars dx) (x_vars sx) ;;;
                            zipM (fun (da sa : str * N) =>
                                    a1 <- get_arr (snd da) ;; a2 <- get_arr (snd sa) ;;
                                    (fix go (l1 l2 : list N) : M unit :=
                                       match l1, l2 with
                                       | e1 :: r1, e2 :: r2 => s0 <- get_cell e2 ;; set_copy f e1 (c_val s0) ;;; go r1 r2
                                       | _, _ => ret Datatypes.tt
                                       end) (a_elems a1) (a_elems a2)) (x_arrs dx) (x_arrs sx)) (fun _ _ => True)).
      { eapply tr_bind; [exact SP'| |].
        * apply tr_zipM_pairs; [exact SP'|]. intros dv sv Hin. eapply tr_bind; [exact SP'|apply tr_get_cell|]. intros cl.
          apply IHs; [stab|]. intros st0 [[_ [HW [HT _]]] [Hm [Hv [Hk Hn]]]]. split; [|split; [exact Hv|]].
          -- rewrite Forall_forall in HW. apply (HW dv). eapply in_combine_l; eauto.
          -- rewrite Forall_forall in HT. specialize (HT (dv, sv) Hin). cbn [fst snd] in HT. eapply typair_nfits; eauto.
        * intros u. apply tr_zipM_pairs; [stab|]. intros da sa Hin.
          eapply tr_bind; [stab|apply tr_get_arr|]. intros a1. eapply tr_bind; [stab|apply tr_get_arr|]. intros a2.
          apply tr_copy_go; [stab|exact IHs| |].
          -- intros st0 [[_ [HF _]] _]. eapply Forall_impl; [|exact HF]. intros e He. apply nonconst_wr. exact He.
          -- intros st0 [[[[_ [_ [_ HA]]] _] [_ [HT1 HA1]]] [_ [HT2 HA2]]]. rewrite Forall_forall in HA.
             exact (arrpair_elems _ _ _ _ _ (HA (da, sa) Hin) HA1 HA2 HT1 HT2). }
      (* copy_var_data reads the two contexts again; with the lookups known it is BODY *)
      match type of BODY with tr _ ?b _ => assert (EQ : copy_var_data (S f) dc sc s = b s) end.
      { cbn [copy_var_data]. unfold bind at 1, get_ctx at 1. rewrite Edx. cbv beta iota. unfold bind at 1, get_ctx at 1. rewrite Esx. cbv beta iota. reflexivity. }
      rewrite EQ. exact (BODY s HI HP').
Qed.

Lemma tr_copy_array_data (P : st -> Prop) fuel d s0 : stable P -> (forall s, P s -> arrpair d s0 s) -> tr P (copy_array_data fuel d s0) (fun _ _ => True).
Proof.
  intros SP HA. unfold copy_array_data. destruct (N.eqb d s0); [eapply tr_true; apply tr_ret|].
  eapply tr_bind; [exact SP|apply tr_get_arr|]. intros a1. eapply tr_bind; [stab|apply tr_get_arr|]. intros a2.
  apply tr_copy_go; [stab|apply (proj1 (set_copy_both fuel))| |].
  - intros s [[_ [HF _]] _]. eapply Forall_impl; [|exact HF]. intros e He. apply nonconst_wr. exact He.
  - intros s [[Hs [_ [HT1 HA1]]] [_ [HT2 HA2]]]. exact (arrpair_elems _ _ _ _ _ (HA s Hs) HA1 HA2 HT1 HT2).
Qed.

Lemma tr_assign_val (P : st -> Prop) fuel dst v : stable P -> (forall s, P s -> wr dst s) -> tr P (assign_val fuel dst v) (fun _ _ => True).
Proof.
  intros SP HV. unfold assign_val. eapply tr_bind; [exact SP|apply tr_get_cell|]. intros d.
  assert (SET : forall p (Q : st -> Prop), (forall tn c, p <> PRec tn c) -> payload_kind p = dk (c_type d) -> named_ok p (c_type d) -> (forall s, Q s -> P s /\ cellmeta dst d s) ->
                tr Q (set_cell_val dst p) (fun _ _ => True)).
  { intros p Q Hp Hk Hn HQ. apply tr_set_cell_val. intros s Hq. destruct (HQ s Hq) as [Hs Hm]. split; [apply (HV s Hs)|]. split; [apply valok_nonrec; exact Hp|eapply cellmeta_fits; eauto]. }
  (* the kind of the cell against the class of the value: off the diagonal the model fails, on it a primitive is stored *)
  destruct (dk (c_type d)) eqn:Ek; try (apply tr_failm; okf);
    (destruct (r_val v) as [p|]; [|(apply tr_failm; okf)]); destruct p; try (apply tr_failm; okf); try (apply SET; [intros; discriminate|reflexivity|apply named_ok_prim; reflexivity|intros s0 H0; tauto]).
  (* left: an enumerated value, a pointer (stored when the type name is that of the value the cell holds) and a record *)
  - destruct (c_val d) eqn:Ed; try bad_contra. destruct (str_eqb tn0 tn); [|(apply tr_failm; okf)].
    apply tr_set_cell_val. intros s [Hs [Hm [_ [_ Hn]]]]. split; [apply (HV s Hs)|]. split; [apply valok_nonrec; intros; discriminate|].
    eapply cellmeta_fits; [exact Hm|cbn; congruence|]. intros t0 Ht. apply Hn. cbn in *. exact Ht.
  - destruct (c_val d) eqn:Ed; try bad_contra. destruct (str_eqb tn0 tn); [|(apply tr_failm; okf)].
    apply tr_set_cell_val. intros s [Hs [Hm [_ [_ Hn]]]]. split; [apply (HV s Hs)|]. split; [apply valok_nonrec; intros; discriminate|].
    eapply cellmeta_fits; [exact Hm|cbn; congruence|]. intros t0 Ht. apply Hn. cbn in *. exact Ht.
  - destruct (c_val d) as [| | | | | | | |tn0 dc] eqn:Ed; try bad_contra.
    apply tr_composite_assign; [stab|apply (proj2 (set_copy_both fuel))|]. intros s [_ [_ [Hv _]]]. eapply Hv. reflexivity.
Qed.

Lemma tr_store_tree : forall f (P : st -> Prop) id t, stable P -> (forall s, P s -> wr id s) -> tr P (store_tree f id t) (fun _ _ => True).
Proof.
  induction f as [|f IH]; intros P id t SP HV; cbn [store_tree]; [(apply tr_failm; okf)|].
  eapply tr_bind; [exact SP|apply tr_get_cell|]. intros cl.
  assert (SET : forall p, (forall tn c, p <> PRec tn c) -> payload_kind p = payload_kind (c_val cl) -> pname p = pname (c_val cl) ->
                tr (fun s => P s /\ cellmeta id cl s /\ valok (c_val cl) s /\ payload_kind (c_val cl) = dk (c_type cl) /\ named_ok (c_val cl) (c_type cl)) (set_cell_val id p) (fun _ _ => True)).
  { intros p Hp Hk Hpn. apply tr_set_cell_val. intros s [Hs [Hm [_ [Hk' Hn']]]]. split; [apply (HV s Hs)|]. split; [apply valok_nonrec; exact Hp|].
    eapply cellmeta_fits; [exact Hm|congruence|eapply named_ok_pname; eauto]. }
  destruct t; destruct (c_val cl) as [| | | | | | | |tn0 rc] eqn:Ed; try (apply tr_failm; okf);
    try (apply SET; [intros; discriminate|reflexivity|reflexivity]); try (eapply tr_true; apply tr_ret).
  - destruct (str_eqb tn tn0); [|(apply tr_failm; okf)]. apply SET; [intros; discriminate|reflexivity|reflexivity].
  - eapply tr_bind; [stab|apply tr_get_ctx|]. intros cx.
    destruct (x_isrec cx) eqn:Hr.
    2:{ apply tr_false. intros s [[_ [_ [Hv _]]] [Hk _]]. pose proof (ctxkind_unique _ _ _ _ Hk (Hv _ _ ltac:(reflexivity))) as X. congruence. }
    eapply tr_bind; [stab| |].
    + apply tr_zipM; [stab|]. intros nv t' Hin. apply IH; [stab|]. intros s [_ [_ [HF _]]]. specialize (HF Hr). rewrite Forall_forall in HF. apply (HF nv Hin).
    + intros u. apply tr_zipM; [stab|]. intros na ts Hin. eapply tr_bind; [stab|apply tr_get_arr|]. intros a.
      apply tr_zipM; [stab|]. intros e t' He. apply IH; [stab|]. intros s [_ [HF _]]. rewrite Forall_forall in HF. apply nonconst_wr. apply (HF e He).
Qed.
