(* Lemmas_LexShift.v — lines inserted above a text move every position below them by exactly their number and change
   nothing else.  Once the line breaks are read, the lexer is where it starts on the text alone but for the line counter
   (n more), for what was read before (line breaks, not nothing) and for the tokens already produced (n LINE_END tokens,
   not none).  From there, step by step ([lex_step_steps] of Lemmas_Lexer.v), the two runs read the same characters and
   produce the same tokens with the same columns and the line numbers n apart; a lexical error is reported n lines
   further down and is otherwise the same. *)
From PE2 Require Import Lexer Lemmas_Lexer.
Require Import Lia.
Local Open Scope Z_scope.

Definition shift_tok (n : Z) (t : token) : token := mkTok (tt t) (tline t + n) (tcol t) (tval t).
Definition shift_err (n : Z) (e : lexerr) : lexerr := mkLexErr (le_kind e) (le_line e + n) (le_col e).

Definition toks_rel (n : Z) (pre toks toks' : list token) : Prop := toks' = map (shift_tok n) toks ++ pre.

Definition plain (pre : list token) : Prop := Forall (fun t => io_keyword (tt t) = false) pre.

(* '(' is refused after the same tokens in both runs: once the first run has a last token both have read the same;
   before that the second run's last token is one of [pre] *)
Lemma blocked_rel n pre s s' t t' : toks_rel n pre t t' -> plain pre -> (t <> [] -> prevc s' = prevc s) ->
  blocked s' t' = blocked s t.
Proof.
  unfold toks_rel, blocked. intros -> Hp Hv. destruct t as [|x r]; cbn [map app].
  - destruct (prevc s'), (prevc s), pre as [|y q]; try reflexivity; inversion Hp as [|? ? Hy _]; rewrite Hy; apply andb_false_r.
  - rewrite Hv by discriminate. reflexivity.
Qed.

Lemma lex_loop_shift n pre ped fuel : forall s s' t t',
  rel n s s' -> toks_rel n pre t t' -> plain pre -> (t <> [] -> prevc s' = prevc s) ->
  match lex_loop fuel ped s t, lex_loop fuel ped s' t' with
  | LOk s1 t1, LOk s1' t1' => rel n s1 s1' /\ toks_rel n pre t1 t1'
  | LErr e, LErr e' => e' = shift_err n e
  | _, _ => False
  end.
Proof.
  induction fuel as [|f IH]; intros s s' t t' H Ht Hp Hv; cbn [lex_loop]; [split; assumption|].
  rewrite (rel_at_end H). destruct (at_end s) eqn:He; [split; assumption|].
  (* after a step the second run is exactly [down n] of the first *)
  destruct (lex_step_steps n ped s s' t t' H He (blocked_rel n pre s s' t t' Ht Hp Hv)) as [k l c|k|k ty l c v _ _];
    [reflexivity| |]; (apply IH; [apply rel_down| |exact Hp|reflexivity]); [exact Ht|].
  unfold toks_rel in *. rewrite Ht. reflexivity.
Qed.

Fixpoint line_ends (k : nat) (l : Z) : list token :=        (* most recent first: lines l+k-1, ..., l *)
  match k with O => [] | S j => line_ends j (l + 1) ++ [mkTok TLINE_END l 1 []] end.
Lemma line_ends_plain k : forall l, plain (line_ends k l).
Proof. induction k as [|j IH]; intros l; cbn [line_ends]; [constructor|]. apply Forall_app. split; [apply IH|constructor; [reflexivity|constructor]]. Qed.

Lemma line_ends_head k : forall l, line_ends (S k) l = mkTok TLINE_END (l + Z.of_nat k) 1 [] :: line_ends k l.
Proof.
  induction k as [|k IH]; intros l; [cbn; rewrite Z.add_0_r; reflexivity|].
  change (line_ends (S (S k)) l) with (line_ends (S k) (l + 1) ++ [mkTok TLINE_END l 1 []]). rewrite IH. cbn [app line_ends].
  f_equal. f_equal. lia.
Qed.

(* a line break is a token of its own; the next line starts in column 1, unless the text ends there *)
Definition col0 (t : str) : Z := match t with [] => 0 | _ => 1 end.

Lemma init_lst_eq t : exists x, init_lst t = mkLst t x 1 (col0 t) None.
Proof. destruct t; eexists; reflexivity. Qed.

Lemma lex_step_newline ped r x l k p toks :
  lex_step ped (mkLst (ch_nl :: r) x l k p) toks =
  LOk (mkLst r ch_nl (l + 1) (col0 r) (Some ch_nl)) (mkTok TLINE_END l k [] :: toks).
Proof. destruct r; reflexivity. Qed.

Lemma lex_loop_newlines ped t : forall k f x l p toks,
  exists x' p', lex_loop (k + f) ped (mkLst (repeat ch_nl k ++ t) x l (col0 (repeat ch_nl k ++ t)) p) toks =
                lex_loop f ped (mkLst t x' (l + Z.of_nat k) (col0 t) p') (line_ends k l ++ toks).
Proof.
  induction k as [|j IH]; intros f x l p toks.
  - exists x, p. cbn [repeat app line_ends plus Z.of_nat]. rewrite Z.add_0_r. reflexivity.
  - cbn [repeat app plus lex_loop at_end rest col0]. rewrite lex_step_newline.
    destruct (IH f ch_nl (l + 1) (Some ch_nl) (mkTok TLINE_END l 1 [] :: toks)) as [x' [p' E]].
    exists x', p'. rewrite E. cbn [line_ends]. rewrite <- app_assoc. cbn [app].
    replace (l + 1 + Z.of_nat j) with (l + Z.of_nat (S j)) by lia. reflexivity.
Qed.

Lemma remove_cr_newlines k t : remove_cr (repeat ch_nl k ++ t) = repeat ch_nl k ++ remove_cr t.
Proof. induction k as [|j IH]; [reflexivity|]. cbn [repeat app]. unfold remove_cr in *. cbn [filter]. change (aeqb ch_nl ch_cr) with false. cbn [negb]. rewrite IH. reflexivity. Qed.

Theorem blank_lines_above ped n text :
  match lex ped text with
  | inl toks => lex ped (repeat ch_nl n ++ text) = inl (rev (line_ends n 1) ++ map (shift_tok (Z.of_nat n)) toks)
  | inr e => lex ped (repeat ch_nl n ++ text) = inr (shift_err (Z.of_nat n) e)
  end.
Proof.
  unfold lex. rewrite remove_cr_newlines, app_length, repeat_length, plus_n_Sm. set (src := remove_cr text).
  (* the line breaks are read first; then the two runs differ by n lines *)
  destruct (init_lst_eq (repeat ch_nl n ++ src)) as [x ->].
  destruct (lex_loop_newlines ped src n (S (List.length src)) x 1 None []) as [x' [p' ->]]. rewrite app_nil_r.
  destruct (init_lst_eq src) as [x0 ->].
  pose proof (lex_loop_shift (Z.of_nat n) (line_ends n 1) ped (S (List.length src)) _ _ [] (line_ends n 1)
                (mkRel _ (mkLst src x0 1 (col0 src) None) (mkLst src x' (1 + Z.of_nat n) (col0 src) p') eq_refl eq_refl eq_refl)
                eq_refl (line_ends_plain n 1) (fun E => match E eq_refl with end)) as HL.
  destruct (lex_loop _ ped _ []) as [s1 t1|e], (lex_loop _ ped _ (line_ends n 1)) as [s1' t1'|e']; try contradiction.
  - destruct HL as [H1 Ht]. unfold toks_rel in Ht. subst t1'. f_equal.
    cbn [rev]. rewrite rev_app_distr, map_app, map_rev. cbn [map]. unfold shift_tok at 2. cbn [tt tline tcol tval].
    rewrite (r_line H1), (r_col H1), <- app_assoc. reflexivity.
  - rewrite HL. reflexivity.
Qed.
