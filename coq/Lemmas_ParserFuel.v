(* Lemmas_ParserFuel.v — the parser's fuel is only a bound: with more fuel every parse function gives the same
   result unless it had stopped for lack of fuel. *)
From PE2 Require Import Parser Lemmas_ParserCong.

Definition out_of_fuel A (r : pres A) : Prop := r = PFuel.

Lemma prs_at_fuel_monotone ped fuel more : prs_cong out_of_fuel more (prs_at ped fuel) (prs_at ped (fuel + more)).
Proof.
  apply prs_at_cong.
  - intros A B r k ->. reflexivity.
  - (* running out of fuel is the bad outcome *) right. reflexivity.
  - (* the same flag on both sides *) left. reflexivity.
Qed.

Lemma prs_at_pf ped fuel : prs_cong out_of_fuel 1 (prs_at ped fuel) (prs_at ped (S fuel)).
Proof. rewrite <- (Nat.add_1_r fuel). apply prs_at_fuel_monotone. Qed.

Theorem parse_block_fuel_step ped fuel bt s :
  parse_block ped fuel bt s = parse_block ped (S fuel) bt s \/ parse_block ped fuel bt s = PFuel.
Proof. exact (c_parse_block _ _ _ _ (prs_at_pf ped fuel) bt s). Qed.
