(* Lemmas_Frame.v — a state relation I preserved by every state update of the model is preserved by every
   computation of the evaluator, whatever the program, the fuel and the outcome; and two runs that differ only in
   ways that make the first fail earlier (the --pedantic guards, less fuel) end alike, or the first stops with such
   a failure in a state from which the final state of the second is I-reachable.  One traversal of the ten evaluation
   functions proves the second; the first is its diagonal.  Instances: Lemmas_Out.v, Lemmas_HeapInv.v (frames),
   Lemmas_Ped.v (--pedantic), Lemmas_Fuel.v (fuel). *)
From PE2 Require Import Eval.
Local Open Scope Z_scope.

Definition ro {A} (m : M A) : Prop := forall s, snd (m s) = s.

Lemma ro_ret {A} (a : A) : ro (ret a).
Proof. intros s. reflexivity. Qed.
Lemma ro_failm {A} f : ro (@failm A f).
Proof. intros s. reflexivity. Qed.
Lemma ro_crash {A} w : ro (@crash A w).
Proof. intros s. reflexivity. Qed.
Lemma ro_gets {A} (f : st -> A) : ro (gets f).
Proof. intros s. reflexivity. Qed.
Lemma ro_bind {A B} (m : M A) (k : A -> M B) : ro m -> (forall a, ro (k a)) -> ro (bind m k).
Proof.
  intros Hm Hk s. unfold bind. specialize (Hm s). destruct (m s) as [[a|f] s1]; cbn [snd] in *; subst s1; [apply Hk|reflexivity].
Qed.
Lemma ro_if {A} (b : bool) (x y : M A) : ro x -> ro y -> ro (if b then x else y).
Proof. destruct b; auto. Qed.
Lemma ro_get_cell id : ro (get_cell id).
Proof. intros s. unfold get_cell. destruct (nm_get id (s_cells s)); reflexivity. Qed.
Lemma ro_get_arr id : ro (get_arr id).
Proof. intros s. unfold get_arr. destruct (nm_get id (s_arrs s)); reflexivity. Qed.
Lemma ro_get_ctx id : ro (get_ctx id).
Proof. intros s. unfold get_ctx. destruct (nm_get id (s_ctxs s)); reflexivity. Qed.

(* a database indexed by the computation's head, so that a step finds the fact that applies without trying the others;
   for the index to tell constants apart they must be opaque to it: a transparent constant matches every pattern *)
Create HintDb ro discriminated.
#[global] Hint Constants Opaque : ro.
#[global] Hint Resolve ro_ret ro_failm ro_crash ro_gets ro_get_cell ro_get_arr ro_get_ctx : ro.

(* a crash site is a string literal, a long term, and the default branch of a match over the token types repeats it
   some seventy times: the literals are given names before a body is decomposed, which keeps goals and proof terms small *)
Ltac name_sites :=
  repeat lazymatch goal with |- context [crash (String ?a ?r)] => let w := fresh "w" in pose (w := String a r); change (String a r) with w end.
(* also beforehand, and after name_sites (unfolding goes through the whole goal): the synonyms of failm,
   runtime_error_cls and lookup_def are unfolded *)
Ltac tidy :=
  name_sites; unfold unsupported, rt_error, not_defined_error, array_direct_error, budget_error, lookup_enum_def, lookup_ptr_def, lookup_comp_def.

(* the computation decomposed is the last argument of the goal's predicate, whichever that is (ro, Pr, RMI) *)
Ltac mstep bind_rule if_rule leaf :=
  lazymatch goal with
  | |- _ (bind _ _) => apply bind_rule; [ | intros ? ]
  | |- _ (match ?x with _ => _ end) => lazymatch type of x with bool => apply if_rule | _ => case x; intros end
  | |- _ => leaf
  end.
(* depth 2: a fact of the database and the one premise some of them have (ro_arr_layout: its argument is read-only) *)
Ltac ro_step := mstep ro_bind ro_if ltac:(solve [auto 2 with ro nocore]).
Ltac ro_steps := tidy; repeat ro_step.

Lemma ro_mapM {A B} (f : A -> M B) l : (forall x, ro (f x)) -> ro (mapM f l).
Proof. intros H. induction l as [|x r IH]; cbn [mapM]; ro_steps. Qed.
Lemma ro_all2M {A B} (f : A -> B -> M bool) l1 l2 : (forall x y, ro (f x y)) -> ro (all2M f l1 l2).
Proof. intros H. revert l2. induction l1 as [|x r IH]; intros [|y r2]; cbn [all2M]; ro_steps. Qed.

Lemma ro_root_of_aux fuel : forall id, ro (root_of_aux fuel id).
Proof. induction fuel as [|f IH]; intros id; cbn [root_of_aux]; ro_steps. Qed.
Lemma ro_nonrec_ancestor_aux fuel : forall id, ro (nonrec_ancestor_aux fuel id).
Proof. induction fuel as [|f IH]; intros id; cbn [nonrec_ancestor_aux]; ro_steps. Qed.
Lemma ro_on_chain_aux fuel : forall id target, ro (on_chain_aux fuel id target).
Proof. induction fuel as [|f IH]; intros id target; cbn [on_chain_aux]; ro_steps. Qed.
Lemma ro_trace_aux fuel : forall id, ro (trace_aux fuel id).
Proof. induction fuel as [|f IH]; intros id; cbn [trace_aux]; ro_steps. Qed.
#[global] Hint Resolve ro_root_of_aux ro_nonrec_ancestor_aux ro_on_chain_aux ro_trace_aux : ro.

Lemma ro_root_of id : ro (root_of id).
Proof. unfold root_of. ro_steps. Qed.
Lemma ro_nonrec_ancestor id : ro (nonrec_ancestor id).
Proof. unfold nonrec_ancestor. ro_steps. Qed.
Lemma ro_on_chain id target : ro (on_chain id target).
Proof. unfold on_chain. ro_steps. Qed.
Lemma ro_runtime_error_cls {A} cls t c : ro (@runtime_error_cls A cls t c).
Proof.
  intros s. unfold runtime_error_cls.
  assert (H : ro (cx <- get_ctx c ;; rest <- trace_aux (S (x_depth cx)) (x_parent cx) ;;
                  ret (mkDiag DRuntime (tline t) (tcol t) cls ((x_name cx, tline t, tcol t) :: rest)))) by ro_steps.
  specialize (H s). destruct ((cx <- get_ctx c ;; _) s) as [[d|f] s1]; exact H.
Qed.
#[global] Hint Resolve ro_root_of ro_nonrec_ancestor ro_on_chain ro_runtime_error_cls : ro.

Lemma ro_lookup_var c name global : ro (lookup_var c name global).
Proof. unfold lookup_var. ro_steps. Qed.
Lemma ro_lookup_arr c name global : ro (lookup_arr c name global).
Proof. unfold lookup_arr. ro_steps. Qed.
Lemma ro_lookup_def_aux {D} (table : ctx -> list (str * D)) fuel : forall c name global, ro (lookup_def_aux table fuel c name global).
Proof. induction fuel as [|f IH]; intros c name global; cbn [lookup_def_aux]; ro_steps. Qed.
#[global] Hint Resolve ro_lookup_var ro_lookup_arr ro_lookup_def_aux : ro.
Lemma ro_lookup_def {D} (table : ctx -> list (str * D)) c name global : ro (lookup_def table c name global).
Proof. unfold lookup_def. ro_steps. Qed.
#[global] Hint Resolve ro_lookup_def : ro.
Lemma ro_get_type c t global : ro (get_type c t global).
Proof. unfold get_type. ro_steps. Qed.
Lemma ro_get_enum_element c v global : ro (get_enum_element c v global).
Proof. unfold get_enum_element. ro_steps. Qed.
#[global] Hint Resolve ro_get_type ro_get_enum_element : ro.
Lemma ro_is_identifier_type c t global : ro (is_identifier_type c t global).
Proof. unfold is_identifier_type. ro_steps. Qed.

Lemma ro_as_int r : ro (as_int r).
Proof. unfold as_int. ro_steps. Qed.
Lemma ro_as_real r : ro (as_real r).
Proof. unfold as_real. ro_steps. Qed.
Lemma ro_as_bool r : ro (as_bool r).
Proof. unfold as_bool. ro_steps. Qed.
Lemma ro_as_char r : ro (as_char r).
Proof. unfold as_char. ro_steps. Qed.
Lemma ro_as_str r : ro (as_str r).
Proof. unfold as_str. ro_steps. Qed.
Lemma ro_as_payload r : ro (as_payload r).
Proof. unfold as_payload. ro_steps. Qed.
#[global] Hint Resolve ro_is_identifier_type ro_as_int ro_as_real ro_as_bool ro_as_char ro_as_str ro_as_payload : ro.

Lemma ro_rec_pair_layout sl e1 e2 : (forall x y, ro (sl x y)) -> ro (rec_pair_layout sl e1 e2).
Proof. intros H. unfold rec_pair_layout. ro_steps. Qed.
Lemma ro_arr_layout sl a1 a2 : (forall x y, ro (sl x y)) -> ro (arr_layout sl a1 a2).
Proof. intros H. unfold arr_layout. ro_steps. apply ro_all2M. intros x y. apply ro_rec_pair_layout. exact H. Qed.
Lemma ro_same_layout fuel : forall dc sc, ro (same_layout fuel dc sc).
Proof.
  induction fuel as [|f IH]; intros dc sc; cbn [same_layout]; ro_steps.
  - apply ro_all2M. intros dv sv. ro_steps.
  - apply ro_all2M. intros da sa. ro_steps. apply ro_arr_layout. exact IH.
Qed.
Lemma ro_abs_val fuel : forall c p, ro (abs_val fuel c p).
Proof.
  induction fuel as [|f IH]; intros c p; destruct p; cbn [abs_val]; ro_steps;
    apply ro_mapM; intros x; ro_steps; apply ro_mapM; intros e; ro_steps.
Qed.
#[global] Hint Resolve ro_arr_layout ro_same_layout ro_abs_val : ro.

Lemma ro_implicit_cast target r : ro (implicit_cast target r).
Proof. unfold implicit_cast. ro_steps. Qed.
Lemma ro_num_as_real r : ro (num_as_real r).
Proof. unfold num_as_real. ro_steps. Qed.
Lemma ro_prim_to_string p : ro (prim_to_string p).
Proof. unfold prim_to_string. ro_steps. Qed.
#[global] Hint Resolve ro_implicit_cast ro_num_as_real ro_prim_to_string : ro.
Lemma ro_cast_prim t c p target : ro (cast_prim t c p target).
Proof. unfold cast_prim. ro_steps. Qed.
Lemma ro_eval_arith t c l r : ro (eval_arith t c l r).
Proof. unfold eval_arith. ro_steps. Qed.
Lemma ro_eval_cmp t c l r : ro (eval_cmp t c l r).
Proof. unfold eval_cmp. ro_steps. Qed.
Lemma ro_enum_name c tn idx : ro (enum_name c tn idx).
Proof. unfold enum_name. ro_steps. Qed.
Lemma ro_expect_holder_var t c h : ro (expect_holder_var t c h).
Proof. unfold expect_holder_var. ro_steps. Qed.
Lemma ro_check_strlen lim n t c : ro (check_strlen lim n t c).
Proof. unfold check_strlen. ro_steps. Qed.
Lemma ro_builtin_args t c ks : forall vs, ro (builtin_args t c ks vs).
Proof. induction ks as [|k kr IH]; intros [|v vr]; cbn [builtin_args]; ro_steps. Qed.
#[global] Hint Resolve ro_cast_prim ro_eval_arith ro_eval_cmp ro_enum_name ro_expect_holder_var ro_check_strlen ro_builtin_args : ro.

(* the ten mutually recursive functions of a level as one family indexed by the result type, so that a statement about
   all ten is one quantified statement *)
Inductive call : Type -> Type :=
 | CEval (n : node) (c : N) : call result
 | CResolve (r : resolver) (c : N) : call holder
 | CCaseEquals (v : result) (e : node) (c : N) : call bool
 | CCaseRange (v : result) (lo hi : node) (c : N) : call bool
 | CRunBlock (bl : block) (c : N) : call unit
 | CNewVar (name : str) (ty : dtype) (cst : bool) (owner : N) : call N
 | CNewArray (name : str) (ty : dtype) (dims : list dim) (owner : N) : call N
 | CBindArgs (t : token) (params : list (str * dtype * bool)) (args : list node) (vals : list result) (c fc : N) : call unit
 | CCallProcedure (t : token) (name : str) (args : list node) (c : N) : call result
 | CCallFunction (t : token) (args : list node) (c : N) : call result.
Definition ev_call {A} (e : evs) (q : call A) : M A :=
  match q with
  | CEval n c => ev_eval e n c
  | CResolve r c => ev_resolve e r c
  | CCaseEquals v x c => ev_case_equals e v x c
  | CCaseRange v lo hi c => ev_case_range e v lo hi c
  | CRunBlock bl c => ev_run_block e bl c
  | CNewVar name ty cst owner => ev_new_var e name ty cst owner
  | CNewArray name ty dims owner => ev_new_array e name ty dims owner
  | CBindArgs t params args vals c fc => ev_bind_args e t params args vals c fc
  | CCallProcedure t name args c => ev_call_procedure e t name args c
  | CCallFunction t args c => ev_call_function e t args c
  end.
Lemma ev_call_zero {A} (q : call A) : ev_call evs_zero q = failm FFuel.
Proof. destruct q; reflexivity. Qed.
Lemma ev_fuel_at ped repl lim fuel : ev_fuel (evs_at ped repl lim fuel) = fuel.
Proof. induction fuel as [|f IH]; cbn [evs_at evs_step evs_zero ev_fuel]; [reflexivity|rewrite IH; reflexivity]. Qed.

(* no handler of the evaluator catches such a failure: it is not a signal, and EOther is the class no handler asks for *)
Definition uncaught (bad : fail -> Prop) : Prop :=
  forall f, bad f -> match f with FErr e => d_cls e = EOther | FBreak _ | FContinue _ | FReturn => False | _ => True end.

(* the components of the state that no frame relation looks at (Lemmas_Out.v, Lemmas_HeapInv.v) may change freely *)
Record same_core (s s' : st) : Prop := {
  core_next : s_next s' = s_next s; core_cells : s_cells s' = s_cells s; core_arrs : s_arrs s' = s_arrs s;
  core_ctxs : s_ctxs s' = s_ctxs s; core_out : s_out s' = s_out s; core_steps : s_steps s' = s_steps s }.

Section Frame.
Variable I : st -> st -> Prop.
Hypothesis I_refl : forall s, I s s.
Hypothesis I_trans : forall a b c, I a b -> I b c -> I a c.

Definition Pr {A} (m : M A) : Prop := forall s, I s (snd (m s)).

Lemma Pr_ro {A} (m : M A) : ro m -> Pr m.
Proof. intros H s. rewrite H. apply I_refl. Qed.
Lemma Pr_ret {A} (a : A) : Pr (ret a).
Proof. intros s. apply I_refl. Qed.
Lemma Pr_failm {A} f : Pr (@failm A f).
Proof. intros s. apply I_refl. Qed.
Lemma Pr_modify f : (forall s, I s (f s)) -> Pr (modify f).
Proof. intros H s. apply H. Qed.
Lemma Pr_if {A} (b : bool) (x y : M A) : Pr x -> Pr y -> Pr (if b then x else y).
Proof. destruct b; auto. Qed.
Lemma bind_tail {A B} (m : M A) (k : A -> M B) s : (forall a, Pr (k a)) -> I (snd (m s)) (snd (bind m k s)).
Proof. intros Hk. unfold bind. destruct (m s) as [[a|f] s1]; cbn [snd]; [apply Hk|apply I_refl]. Qed.
Lemma catch_tail {A} (m : M A) h s : (forall f m', h f = Some m' -> Pr m') -> I (snd (m s)) (snd (catch m h s)).
Proof.
  intros Hh. unfold catch. destruct (m s) as [[a|f] s1]; cbn [snd]; [apply I_refl|].
  destruct (h f) as [m'|] eqn:E; [apply (Hh f m' E)|apply I_refl].
Qed.
Lemma catch_cls_tail {A} (m : M A) want h s : (forall f, Pr (h f)) -> I (snd (m s)) (snd (catch_cls m want h s)).
Proof.
  intros Hh. apply catch_tail. intros f m' E.
  destruct f; try discriminate. destruct (want (d_cls d)); [|discriminate]. inversion E; subst. apply Hh.
Qed.
Lemma Pr_bind {A B} (m : M A) (k : A -> M B) : Pr m -> (forall a, Pr (k a)) -> Pr (bind m k).
Proof. intros Hm Hk s. eapply I_trans; [apply Hm|apply bind_tail, Hk]. Qed.
Lemma Pr_catch_cls {A} (m : M A) want h : Pr m -> (forall f, Pr (h f)) -> Pr (catch_cls m want h).
Proof. intros Hm Hh s. eapply I_trans; [apply Hm|apply catch_cls_tail, Hh]. Qed.
Ltac pr_basic := mstep Pr_bind Pr_if ltac:(solve [auto using Pr_ret, Pr_failm]).
Lemma Pr_mapM {A B} (f : A -> M B) l : (forall x, Pr (f x)) -> Pr (mapM f l).
Proof. intros H. induction l as [|x r IH]; cbn [mapM]; repeat pr_basic. Qed.
Lemma Pr_iterM {A} (f : A -> M unit) l : (forall x, Pr (f x)) -> Pr (iterM f l).
Proof. intros H. induction l as [|x r IH]; cbn [iterM]; repeat pr_basic. Qed.
Lemma Pr_zipM {A B} (f : A -> B -> M unit) l1 l2 : (forall x y, Pr (f x y)) -> Pr (zipM f l1 l2).
Proof. intros H. revert l2. induction l1 as [|x r IH]; intros [|y r2]; cbn [zipM]; repeat pr_basic. Qed.
Lemma run_body_state br s : snd (run_body br s) = snd (br s).
Proof. unfold run_body, catch, bind. destruct (br s) as [[a|f] s1]; [reflexivity|]. destruct f; reflexivity. Qed.
Lemma Pr_run_body br : Pr br -> Pr (run_body br).
Proof. intros H s. rewrite run_body_state. apply H. Qed.

Lemma Pr_composite_assign cvd fuel tn0 dc tn sc : (forall a b, Pr (cvd a b)) -> Pr (composite_assign cvd fuel tn0 dc tn sc).
Proof.
  intros H. unfold composite_assign. apply Pr_if; [|apply Pr_failm].
  apply Pr_bind; [apply Pr_ro, ro_same_layout|]. intros ok. apply Pr_if; [apply H|apply Pr_ro, ro_runtime_error_cls].
Qed.

(* I is kept by each of the updates the model performs.  Cells are written in exactly two ways: a new cell under
   the identifier just taken from the counter, and a new payload for an existing cell (name, type, constant flag
   and owner kept); arrays in one: a new array under the identifier just taken from the counter; contexts in two:
   a new context under the identifier just taken from the counter, and a new record for a context that exists *)
Record frame_ok : Prop := {
  I_core : forall s s', same_core s s' -> I s s';
  I_alloc : forall c s, I s (set_cells (nm_put (s_next s) c (s_cells s)) (set_next (N.succ (s_next s)) s));
  I_setval : forall id v c s, nm_get id (s_cells s) = Some c ->
    I s (set_cells (nm_put id (mkCell (c_name c) (c_type c) (c_const c) (c_owner c) v) (s_cells s)) s);
  I_alloc_arr : forall a s, I s (set_arrs (nm_put (s_next s) a (s_arrs s)) (set_next (N.succ (s_next s)) s));
  I_alloc_ctx : forall c s, I s (set_ctxs (nm_put (s_next s) c (s_ctxs s)) (set_next (N.succ (s_next s)) s));
  I_upd_ctx : forall id c c' s, nm_get id (s_ctxs s) = Some c -> I s (set_ctxs (nm_put id c' (s_ctxs s)) s);
  I_emit : forall x s, I s (set_out (x :: s_out s) s);
  I_steps : forall s, I s (set_steps (s_steps s + 1) s) }.

Section Updates.
Hypothesis HI : frame_ok.

Lemma Pr_core f : (forall s, same_core s (f s)) -> Pr (modify f).
Proof. intros H. apply Pr_modify. intros s. apply (I_core HI), H. Qed.
Lemma I_depth_mono d a b : I a b -> I (set_depth d a) (set_depth d b).
Proof. intros H. apply (I_trans _ a); [apply (I_core HI); constructor; reflexivity|]. apply (I_trans _ b); [exact H|apply (I_core HI); constructor; reflexivity]. Qed.
Lemma Pr_alloc {B} (c : cell) (k : N -> M B) : (forall id, Pr (k id)) -> Pr (id <- fresh ;; put_cell id c ;;; k id).
Proof. intros Hk s. eapply I_trans; [apply (I_alloc HI c s)|]. apply Hk. Qed.
Lemma Pr_alloc_arr {B} (a : arr) (k : N -> M B) : (forall id, Pr (k id)) -> Pr (id <- fresh ;; put_arr id a ;;; k id).
Proof. intros Hk s. eapply I_trans; [apply (I_alloc_arr HI a s)|]. apply Hk. Qed.
Lemma Pr_alloc_ctx {B} (c : ctx) (k : N -> M B) : (forall id, Pr (k id)) -> Pr (id <- fresh ;; put_ctx id c ;;; k id).
Proof. intros Hk s. eapply I_trans; [apply (I_alloc_ctx HI c s)|]. apply Hk. Qed.
Lemma Pr_set_cell_val id v : Pr (set_cell_val id v).
Proof.
  intros s. unfold set_cell_val, bind, get_cell. destruct (nm_get id (s_cells s)) as [c|] eqn:E; [|apply I_refl].
  apply (I_setval HI). exact E.
Qed.
Lemma Pr_upd_ctx id f : Pr (upd_ctx id f).
Proof.
  intros s. unfold upd_ctx, bind, get_ctx. destruct (nm_get id (s_ctxs s)) as [c|] eqn:E; [|apply I_refl].
  apply (I_upd_ctx HI id c). exact E.
Qed.
Lemma Pr_emit x : Pr (emit x).
Proof. apply Pr_modify. intros s. apply (I_emit HI). Qed.

Create HintDb pr discriminated.
#[local] Hint Constants Opaque : pr.
#[local] Hint Resolve Pr_set_cell_val Pr_upd_ctx Pr_emit : pr.
(* last, and one step deeper in pr_step: what only reads keeps the frame *)
#[local] Hint Resolve Pr_ro | 5 : pr.

Ltac pr_step :=
  lazymatch goal with
  | |- Pr (bind fresh (fun id => bind (put_cell id _) _)) => apply Pr_alloc; intros ?
  | |- Pr (bind fresh (fun id => bind (put_arr id _) _)) => apply Pr_alloc_arr; intros ?
  | |- Pr (bind fresh (fun id => bind (put_ctx id _) _)) => apply Pr_alloc_ctx; intros ?
  | |- Pr (catch_cls _ _ _) => apply Pr_catch_cls; [ | intros ? ]
  | |- Pr (mapM _ _) => apply Pr_mapM; intros ?
  | |- Pr (iterM _ _) => apply Pr_iterM; intros ?
  | |- Pr (zipM _ _ _) => apply Pr_zipM; intros ? ?
  | |- Pr (modify _) => apply Pr_core; intros ?; constructor; reflexivity
  | |- _ => mstep Pr_bind Pr_if ltac:(solve [auto 3 with pr ro nocore])
  end.
Ltac pr_steps := tidy; repeat pr_step.

Lemma Pr_copy fuel : (forall p, Pr (copy_val fuel p)) /\ (forall c, Pr (copy_ctx fuel c)).
Proof.
  induction fuel as [|f [IHv IHc]].
  - split; [intros p; destruct p; cbn [copy_val]|intros c; cbn [copy_ctx]]; pr_steps.
  - assert (Hc : forall c, Pr (copy_ctx (S f) c)) by (intros c; cbn [copy_ctx]; pr_steps).
    split; [|exact Hc]. intros p. destruct p; cbn [copy_val]; pr_steps.
Qed.
Lemma Pr_copy_val fuel p : Pr (copy_val fuel p).
Proof. apply Pr_copy. Qed.
#[local] Hint Resolve Pr_copy_val : pr.

(* the inner loop of copy_var_data and copy_array_data (Array::copyData), which Heap.v writes in place: the same text,
   so that the two occurrences are instances of it by conversion *)
Lemma Pr_copy_go (sc : N -> payload -> M unit) : (forall d p, Pr (sc d p)) -> forall l1 l2,
  Pr ((fix go (l1 l2 : list N) : M unit :=
         match l1, l2 with
         | e1 :: r1, e2 :: r2 => s <- get_cell e2 ;; sc e1 (c_val s) ;;; go r1 r2
         | _, _ => ret Datatypes.tt
         end) l1 l2).
Proof. intros H. induction l1 as [|e1 r1 IH]; intros [|e2 r2]; pr_steps. Qed.

Lemma Pr_set_copy_both fuel : (forall d p, Pr (set_copy fuel d p)) /\ (forall dc sc, Pr (copy_var_data fuel dc sc)).
Proof.
  induction fuel as [|f [IHs IHc]].
  - split; intros; [cbn [set_copy]|cbn [copy_var_data]]; apply Pr_failm.
  - split.
    + intros d p. cbn [set_copy]. pr_steps. apply Pr_composite_assign. exact IHc.
    + intros dc sc. cbn [copy_var_data]. pr_steps. apply (Pr_copy_go (set_copy f) IHs).
Qed.
Lemma Pr_set_copy fuel d p : Pr (set_copy fuel d p).
Proof. apply Pr_set_copy_both. Qed.
Lemma Pr_copy_var_data fuel dc sc : Pr (copy_var_data fuel dc sc).
Proof. apply Pr_set_copy_both. Qed.
Lemma Pr_copy_array_data fuel d s0 : Pr (copy_array_data fuel d s0).
Proof. unfold copy_array_data. pr_steps. apply (Pr_copy_go (set_copy fuel)). intros. apply Pr_set_copy. Qed.
Lemma Pr_assign_val fuel dst v : Pr (assign_val fuel dst v).
Proof. unfold assign_val. pr_steps; apply Pr_composite_assign; intros; apply Pr_copy_var_data. Qed.
Lemma Pr_store_tree fuel : forall id t, Pr (store_tree fuel id t).
Proof. induction fuel as [|f IH]; intros id t; cbn [store_tree]; pr_steps. Qed.
#[local] Hint Resolve Pr_copy_array_data Pr_assign_val Pr_store_tree : pr.

Lemma Pr_close_file_effect f : Pr (close_file_effect f).
Proof. unfold close_file_effect. pr_steps. Qed.
Lemma Pr_create_file name mode : Pr (create_file name mode).
Proof. unfold create_file. pr_steps. Qed.
Lemma Pr_update_file f : Pr (update_file f).
Proof. unfold update_file. pr_steps. Qed.
Lemma Pr_add_var c name id : Pr (add_var c name id).
Proof. apply Pr_upd_ctx. Qed.
Lemma Pr_add_arr c name id : Pr (add_arr c name id).
Proof. apply Pr_upd_ctx. Qed.
Lemma Pr_new_ctx parent name isfun isrec rett : Pr (new_ctx parent name isfun isrec rett).
Proof. unfold new_ctx. pr_steps. Qed.
Lemma Pr_alloc_cells lim n c : Pr (alloc_cells lim n c).
Proof. unfold alloc_cells. pr_steps. Qed.
Lemma Pr_read_line : Pr read_line.
Proof. unfold read_line. pr_steps. Qed.
Lemma Pr_next_rand : Pr next_rand.
Proof. unfold next_rand. pr_steps. Qed.
#[local] Hint Resolve Pr_close_file_effect Pr_create_file Pr_update_file Pr_add_var Pr_add_arr Pr_new_ctx Pr_alloc_cells
  Pr_read_line Pr_next_rand : pr.
Lemma Pr_run_builtin n fc args : Pr (run_builtin n fc args).
Proof. unfold run_builtin. pr_steps. Qed.
Lemma Pr_output_item c t r : Pr (output_item c t r).
Proof. unfold output_item. pr_steps. Qed.
Lemma Pr_echo_result c r : Pr (echo_result c r).
Proof. unfold echo_result. pr_steps. Qed.
Lemma Pr_store_value t c id v : Pr (store_value t c id v).
Proof. unfold store_value. pr_steps. Qed.
#[local] Hint Resolve Pr_run_builtin Pr_output_item Pr_echo_result Pr_store_value : pr.

Lemma call_body_tail d cc ab m s : I (set_depth d (snd (m s))) (snd (call_body d cc ab m s)).
Proof.
  unfold call_body. destruct (m s) as [[a|f] s1]; cbn [snd]; [apply I_refl|]. destruct f; try apply I_refl.
  1, 2: apply (Pr_ro _ (@ro_runtime_error_cls unit _ _ _)).
  destruct ab; apply I_refl.
Qed.
Lemma Pr_call_body d cc ab m : Pr m -> Pr (call_body d cc ab m).
Proof.
  intros Hm s. apply (I_trans _ (snd (m s))); [apply Hm|].
  apply (I_trans _ (set_depth d (snd (m s)))); [apply (I_core HI); constructor; reflexivity|apply call_body_tail].
Qed.

Lemma Pr_tick lim t c : Pr (tick lim t c).
Proof.
  intros s. unfold tick, bind, gets. cbn [fst snd].
  destruct ((0 <? max_steps lim) && (max_steps lim <? s_steps s + 1)); [apply (Pr_ro _ (@ro_runtime_error_cls unit _ _ _))|].
  apply (I_steps HI).
Qed.
#[local] Hint Resolve Pr_tick : pr.

Section Loops.
Variables (lim : limits) (t : token) (c : N).
Lemma Pr_while k ce br : Pr ce -> Pr br -> Pr (while_loop lim k t c ce br).
Proof. intros Hc Hb. pose proof (Pr_run_body br Hb). induction k as [|k IH]; cbn [while_loop]; unfold cond_bool; pr_steps. Qed.
Lemma Pr_repeat k ce br : Pr ce -> Pr br -> Pr (repeat_loop lim k t c ce br).
Proof. intros Hc Hb. pose proof (Pr_run_body br Hb). induction k as [|k IH]; cbn [repeat_loop]; unfold cond_bool; pr_steps. Qed.
Lemma Pr_for k it stepv stop br : Pr br -> Pr (for_loop lim k t c it stepv stop br).
Proof. intros Hb. pose proof (Pr_run_body br Hb). induction k as [|k IH]; cbn [for_loop]; pr_steps. Qed.
End Loops.

(* two runs, the first of which may stop earlier with a failure from bad.  RMI carries the frame property of the second
   computation along: that is what lets a sequence go on after the first has stopped.  The second run may have [more] fuel
   only if running out of fuel is bad, and another pedantic flag only if the guards are so related (Hguard). *)
Section Cong.
Variable bad : fail -> Prop.
Hypothesis bad_uncaught : uncaught bad.
Variable more : nat.
Hypothesis Hmore : more = 0%nat \/ bad FFuel.
Variables p1 p2 : bool.

Definition RI {A} (x y : outcome A * st) : Prop := x = y \/ exists f s, x = (Fail f, s) /\ bad f /\ I s (snd y).
Definition RMI {A} (m1 m2 : M A) : Prop := (forall s, RI (m1 s) (m2 s)) /\ Pr m2.
Hypothesis Hguard : forall t, RMI (ped_guard p1 t) (ped_guard p2 t).

Lemma RMI_refl {A} (m : M A) : Pr m -> RMI m m.
Proof. intros H. split; [intros s; left; reflexivity|exact H]. Qed.
Lemma RMI_bad {A} f (m : M A) : bad f -> Pr m -> RMI (failm f) m.
Proof. intros Hb H. split; [|exact H]. intros s. right. exists f, s. split; [reflexivity|]. split; [exact Hb|apply H]. Qed.
Lemma RMI_out_of_fuel {A} (m : M A) : (more = 0%nat -> m = failm FFuel) -> Pr m -> RMI (failm FFuel) m.
Proof. intros E H. destruct Hmore as [Hz|Hb]; [rewrite (E Hz); apply RMI_refl, Pr_failm|apply RMI_bad; assumption]. Qed.
Lemma RMI_if {A} (b : bool) (x1 x2 y1 y2 : M A) : RMI x1 x2 -> RMI y1 y2 -> RMI (if b then x1 else y1) (if b then x2 else y2).
Proof. destruct b; auto. Qed.

Lemma RMI_bind {A B} (m1 m2 : M A) (k1 k2 : A -> M B) :
  RMI m1 m2 -> (forall a, RMI (k1 a) (k2 a)) -> RMI (bind m1 k1) (bind m2 k2).
Proof.
  intros [Hm Pm] Hk. split; [|apply Pr_bind; [exact Pm|intros a; apply Hk]].
  intros s. destruct (Hm s) as [E|[f [s' [E [Hb HI']]]]]; unfold bind at 1; rewrite E.
  - unfold bind. destruct (m2 s) as [[a|f] s1]; [apply (proj1 (Hk a))|left; reflexivity].
  - right. exists f, s'. split; [reflexivity|]. split; [exact Hb|].
    apply (I_trans _ (snd (m2 s))); [exact HI'|]. apply bind_tail. intros a. apply Hk.
Qed.
Lemma RMI_catch_cls {A} (m1 m2 : M A) want (h1 h2 : fail -> M A) :
  want EOther = false -> RMI m1 m2 -> (forall fl, RMI (h1 fl) (h2 fl)) -> RMI (catch_cls m1 want h1) (catch_cls m2 want h2).
Proof.
  intros Hw [Hm Pm] Hh. split; [|apply Pr_catch_cls; [exact Pm|intros f; apply Hh]].
  intros s. destruct (Hm s) as [E|[f [s' [E [Hb HI']]]]]; unfold catch_cls at 1, catch at 1; rewrite E.
  - unfold catch_cls, catch. destruct (m2 s) as [[a|f] s1]; [left; reflexivity|]. destruct f as [e| | | | | |]; try (left; reflexivity).
    destruct (want (d_cls e)); [apply (proj1 (Hh _))|left; reflexivity].
  - right. exists f, s'. split; [|split; [exact Hb|]].
    + pose proof (bad_uncaught f Hb) as Hu. destruct f; try reflexivity. rewrite Hu, Hw. reflexivity.
    + apply (I_trans _ (snd (m2 s))); [exact HI'|]. apply catch_cls_tail. intros fl. apply Hh.
Qed.
Lemma RMI_run_body br1 br2 : RMI br1 br2 -> RMI (run_body br1) (run_body br2).
Proof.
  intros [Hm Pm]. split; [|apply Pr_run_body; exact Pm].
  intros s. destruct (Hm s) as [E|[f [s' [E [Hb HI']]]]]; unfold run_body at 1, catch at 1, bind at 1; rewrite E.
  - left. reflexivity.
  - right. exists f, s'. rewrite run_body_state. split; [|split; assumption].
    pose proof (bad_uncaught f Hb). destruct f; try reflexivity; contradiction.
Qed.
Lemma RMI_call_body d cc ab (m1 m2 : M unit) : RMI m1 m2 -> RMI (call_body d cc ab m1) (call_body d cc ab m2).
Proof.
  intros [Hm Pm]. split; [|apply Pr_call_body; exact Pm].
  intros s. destruct (Hm s) as [E|[f [s' [E [Hb HI']]]]]; unfold call_body at 1; rewrite E.
  - left. reflexivity.
  - right. exists f, (set_depth d s'). split; [|split; [exact Hb|]].
    + pose proof (bad_uncaught f Hb). destruct f; try reflexivity; contradiction.
    + apply (I_trans _ (set_depth d (snd (m2 s)))); [apply I_depth_mono; exact HI'|apply call_body_tail].
Qed.

(* what is atomic is an induction hypothesis or an assumption of the lemma: the proofs below first [pose proof] what they
   have of these, for this [auto] to find *)
Ltac rmi_step :=
  lazymatch goal with
  | |- RMI ?x ?y =>
    tryif constr_eq x y then apply RMI_refl else
    lazymatch goal with
    | |- RMI (catch_cls _ _ _) (catch_cls _ _ _) => apply RMI_catch_cls; [ reflexivity | | intros ? ]
    | |- RMI (call_body _ _ _ _) (call_body _ _ _ _) => apply RMI_call_body
    | |- RMI (ped_guard _ _) (ped_guard _ _) => apply Hguard
    | |- _ => mstep RMI_bind RMI_if ltac:(solve [auto 1 with nocore])
    end
  | |- Pr _ => pr_step
  end.
Ltac rmi_steps := tidy; repeat rmi_step.

Lemma RMI_mapM {A B} (f1 f2 : A -> M B) l : (forall x, RMI (f1 x) (f2 x)) -> RMI (mapM f1 l) (mapM f2 l).
Proof. intros H. induction l as [|x r IH]; cbn [mapM]; rmi_steps. Qed.
Lemma RMI_iterM {A} (f1 f2 : A -> M unit) l : (forall x, RMI (f1 x) (f2 x)) -> RMI (iterM f1 l) (iterM f2 l).
Proof. intros H. induction l as [|x r IH]; cbn [iterM]; rmi_steps. Qed.
Lemma RMI_repeatM {A} k (m1 m2 : M A) : RMI m1 m2 -> RMI (repeatM k m1) (repeatM k m2).
Proof. intros H. induction k as [|k IH]; cbn [repeatM]; rmi_steps. Qed.

(* the bounds are taken two at a time: the statement for a list and for the list with one more element in front *)
Lemma RMI_eval_bounds (ev1 ev2 : node -> M result) c bs : (forall e, RMI (ev1 e) (ev2 e)) ->
  forall total, RMI (eval_bounds ev1 c bs total) (eval_bounds ev2 c bs total).
Proof.
  intros H.
  assert (G : (forall total, RMI (eval_bounds ev1 c bs total) (eval_bounds ev2 c bs total)) /\
              (forall x total, RMI (eval_bounds ev1 c (x :: bs) total) (eval_bounds ev2 c (x :: bs) total))).
  { induction bs as [|y r [IH1 IH2]]; (split; [|intros x]); intros total; try apply IH2; cbn [eval_bounds]; rmi_steps. }
  apply G.
Qed.
Lemma RMI_eval_indices (ev1 ev2 : node -> M result) c es : (forall e, RMI (ev1 e) (ev2 e)) ->
  forall ds, RMI (eval_indices ev1 c es ds) (eval_indices ev2 c es ds).
Proof. intros H. induction es as [|e er IH]; intros [|d dr]; cbn [eval_indices]; rmi_steps. Qed.

Section RLoops.
Variables (lim : limits) (t : token) (c : N).
Lemma RMI_cond_bool ce1 ce2 : RMI ce1 ce2 -> RMI (cond_bool t c ce1) (cond_bool t c ce2).
Proof. intros H. unfold cond_bool. rmi_steps. Qed.
Lemma RMI_while k k' ce1 ce2 br1 br2 : k' = (k + more)%nat -> RMI ce1 ce2 -> RMI br1 br2 ->
  RMI (while_loop lim k t c ce1 br1) (while_loop lim k' t c ce2 br2).
Proof.
  intros -> Hc Hb. pose proof (RMI_cond_bool _ _ Hc). pose proof (RMI_run_body _ _ Hb).
  induction k as [|k IH]; cbn [Nat.add while_loop]; [|rmi_steps].
  apply RMI_out_of_fuel; [intros E; rewrite E; reflexivity|apply Pr_while; [apply Hc|apply Hb]].
Qed.
Lemma RMI_repeat k k' ce1 ce2 br1 br2 : k' = (k + more)%nat -> RMI ce1 ce2 -> RMI br1 br2 ->
  RMI (repeat_loop lim k t c ce1 br1) (repeat_loop lim k' t c ce2 br2).
Proof.
  intros -> Hc Hb. pose proof (RMI_cond_bool _ _ Hc). pose proof (RMI_run_body _ _ Hb).
  induction k as [|k IH]; cbn [Nat.add repeat_loop]; [|rmi_steps].
  apply RMI_out_of_fuel; [intros E; rewrite E; reflexivity|apply Pr_repeat; [apply Hc|apply Hb]].
Qed.
Lemma RMI_for k k' it stepv stop br1 br2 : k' = (k + more)%nat -> RMI br1 br2 ->
  RMI (for_loop lim k t c it stepv stop br1) (for_loop lim k' t c it stepv stop br2).
Proof.
  intros -> Hb. pose proof (RMI_run_body _ _ Hb).
  induction k as [|k IH]; cbn [Nat.add for_loop]; [|rmi_steps].
  apply RMI_out_of_fuel; [intros E; rewrite E; reflexivity|apply Pr_for; apply Hb].
Qed.
Lemma RMI_if_chain_map (ev1 ev2 : node -> M result) (rb1 rb2 : list node -> M unit) comps :
  (forall e, RMI (ev1 e) (ev2 e)) -> (forall b, RMI (rb1 b) (rb2 b)) ->
  RMI (if_chain t c (map (if_comp ev1 rb1) comps)) (if_chain t c (map (if_comp ev2 rb2) comps)).
Proof.
  intros He Hb. induction comps as [|[[e|] b] r IH]; cbn [map if_comp if_chain fst snd]; rmi_steps.
  apply RMI_cond_bool, He.
Qed.
Lemma RMI_case_chain_map {X} (f g : X -> M bool * M unit) l :
  (forall x, RMI (fst (f x)) (fst (g x)) /\ RMI (snd (f x)) (snd (g x))) -> RMI (case_chain (map f l)) (case_chain (map g l)).
Proof.
  intros H. induction l as [|x r IH]; cbn [map case_chain]; [rmi_steps|].
  destruct (H x) as [Hm Hb]. destruct (f x) as [m1 b1], (g x) as [m2 b2]. cbn [fst snd] in *. rmi_steps.
Qed.
End RLoops.

Definition evs_rel (a b : evs) : Prop := forall A (q : call A), RMI (ev_call a q) (ev_call b q).

Section Bodies.
Variables (repl : bool) (lim : limits) (a b : evs).
Hypothesis Hfuel : ev_fuel b = (ev_fuel a + more)%nat.
Hypothesis H : evs_rel a b.

Ltac rmi :=
  tidy; repeat lazymatch goal with
  | |- RMI (ev_eval _ ?n ?c) _ => exact (H _ (CEval n c))
  | |- RMI (ev_resolve _ ?r ?c) _ => exact (H _ (CResolve r c))
  | |- RMI (ev_case_equals _ ?v ?e ?c) _ => exact (H _ (CCaseEquals v e c))
  | |- RMI (ev_case_range _ ?v ?lo ?hi ?c) _ => exact (H _ (CCaseRange v lo hi c))
  | |- RMI (ev_run_block _ ?bl ?c) _ => exact (H _ (CRunBlock bl c))
  | |- RMI (ev_new_var _ ?name ?ty ?cst ?owner) _ => exact (H _ (CNewVar name ty cst owner))
  | |- RMI (ev_new_array _ ?name ?ty ?dims ?owner) _ => exact (H _ (CNewArray name ty dims owner))
  | |- RMI (ev_bind_args _ ?t ?params ?args ?vals ?c ?fc) _ => exact (H _ (CBindArgs t params args vals c fc))
  | |- RMI (ev_call_procedure _ ?t ?name ?args ?c) _ => exact (H _ (CCallProcedure t name args c))
  | |- RMI (ev_call_function _ ?t ?args ?c) _ => exact (H _ (CCallFunction t args c))
  | |- RMI (mapM _ _) (mapM _ _) => apply RMI_mapM; intros ?
  | |- RMI (iterM _ _) (iterM _ _) => apply RMI_iterM; intros ?
  | |- RMI (repeatM _ _) (repeatM _ _) => apply RMI_repeatM
  | |- RMI (eval_bounds _ _ _ _) (eval_bounds _ _ _ _) => apply RMI_eval_bounds; intros ?
  | |- RMI (eval_indices _ _ _ _) (eval_indices _ _ _ _) => apply RMI_eval_indices; intros ?
  | |- RMI (if_chain _ _ (map (if_comp _ _) _)) (if_chain _ _ (map (if_comp _ _) _)) => apply RMI_if_chain_map; intros ?
  | |- RMI (case_chain (map _ _)) (case_chain (map _ _)) => apply RMI_case_chain_map; intros cc; case cc; intros; split; cbn [fst snd]
  | |- RMI (while_loop _ _ _ _ _ _) (while_loop _ _ _ _ _ _) => apply RMI_while; [exact Hfuel | | ]
  | |- RMI (repeat_loop _ _ _ _ _ _) (repeat_loop _ _ _ _ _ _) => apply RMI_repeat; [exact Hfuel | | ]
  | |- RMI (for_loop _ _ _ _ _ _ _ _) (for_loop _ _ _ _ _ _ _ _) => apply RMI_for; [exact Hfuel | ]
  | |- _ => rmi_step
  end.

Lemma evs_step_rel : evs_rel (evs_step p1 repl lim a) (evs_step p2 repl lim b).
Proof.
  intros A q. destruct q; cbn [ev_call evs_step ev_eval ev_resolve ev_case_equals ev_case_range ev_run_block ev_new_var ev_new_array
                               ev_bind_args ev_call_procedure ev_call_function].
  - destruct n; unfold eval_body; rmi.
  - destruct r; unfold resolve_body; rmi.
  - unfold case_equals_body; rmi.
  - unfold case_range_body; rmi.
  - unfold run_block_body; rmi.
  - unfold new_var_body; rmi.
  - unfold new_array_body; rmi.
  - unfold bind_args_body; rmi.
  - unfold call_procedure_body; rmi.
  - unfold call_function_body; rmi.
Qed.
End Bodies.

Lemma evs_at_rel repl lim fuel fuel' : fuel' = (fuel + more)%nat ->
  evs_rel evs_zero (evs_at p2 repl lim more) -> evs_rel (evs_at p1 repl lim fuel) (evs_at p2 repl lim fuel').
Proof.
  intros -> H0. induction fuel as [|f IH]; [exact H0|]. cbn [Nat.add evs_at].
  apply evs_step_rel; [rewrite !ev_fuel_at; reflexivity|exact IH].
Qed.
End Cong.

Theorem evs_at_Pr ped repl lim fuel A (q : call A) : Pr (ev_call (evs_at ped repl lim fuel) q).
Proof.
  apply (evs_at_rel (fun _ => False)) with (more := 0%nat) (p1 := ped) (fuel := fuel).
  - intros f [].
  - left. reflexivity.
  - intros t. apply RMI_refl. unfold ped_guard. pr_steps.
  - apply plus_n_O.
  - intros B r. cbn [evs_at]. rewrite ev_call_zero. apply RMI_refl, Pr_failm.
Qed.
Theorem Pr_eval ped repl lim fuel n c : Pr (eval ped repl lim fuel n c).
Proof. exact (evs_at_Pr ped repl lim fuel _ (CEval n c)). Qed.
Theorem Pr_run_block ped repl lim fuel bl c : Pr (run_block ped repl lim fuel bl c).
Proof. exact (evs_at_Pr ped repl lim fuel _ (CRunBlock bl c)). Qed.

(* at the bottom: level 0, out of fuel, against level [more], of which the frame property is known *)
Theorem evs_at_cong bad more p1 p2 repl lim fuel fuel' :
  uncaught bad -> more = 0%nat \/ bad FFuel -> (forall t, RMI bad (ped_guard p1 t) (ped_guard p2 t)) -> fuel' = (fuel + more)%nat ->
  evs_rel bad (evs_at p1 repl lim fuel) (evs_at p2 repl lim fuel').
Proof.
  intros Hu Hm Hg Hf. apply evs_at_rel with (more := more); try assumption. intros A q. rewrite ev_call_zero.
  apply RMI_out_of_fuel with (more := more); [exact Hm| |apply evs_at_Pr]. intros E. rewrite E. apply ev_call_zero.
Qed.
End Updates.
End Frame.

Lemma frame_ok_total : frame_ok (fun _ _ => True).
Proof. constructor; intros; exact Logic.I. Qed.
