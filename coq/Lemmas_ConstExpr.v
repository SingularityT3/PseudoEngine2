(* Lemmas_ConstExpr.v -- the program logic carried through eval_body (one case per node class). *)
From PE2 Require Import Eval Lemmas_ConstLogic Lemmas_ConstEval.
Local Open Scope N_scope.

Lemma own_from_newvar name ty cst c id s cx : newvar_post name ty cst c id s -> nm_get c (s_ctxs s) = Some cx -> x_isrec cx = true -> ownrec id s.
Proof. intros [p [H _]] E F. eapply cellmeta_ownrec; [exact H|]. cbn. exists cx. auto. Qed.
Lemma own_from_cellmeta id cl c s cx : cellmeta id cl s -> c_owner cl = c -> nm_get c (s_ctxs s) = Some cx -> x_isrec cx = true -> ownrec id s.
Proof. intros H <- E F. eapply cellmeta_ownrec; [exact H|]. exists cx. auto. Qed.
Lemma wr_nonconst_meta id cl s : cellmeta id cl s -> c_const cl = false -> wr id s.
Proof. intros H C. eapply cellmeta_wr; eauto. Qed.
Lemma wr_ptr_meta id cl s : cellmeta id cl s -> negb (dt_is (c_type cl) KPtr) = false -> wr id s.
Proof.
  intros H C. eapply cellmeta_wr; [exact H|]. right. unfold dt_is in C. apply negb_false_iff in C. apply dk_eqb_eq in C. rewrite C. reflexivity.
Qed.
Lemma newvar_fits name ty cst owner id v s : newvar_post name ty cst owner id s -> payload_kind v = dk ty -> named_ok v ty -> fits id v s.
Proof. intros [p [H _]] E Hn. eapply cellmeta_fits; [exact H|exact E|exact Hn]. Qed.

(* the entailments a symbolic execution leaves: at a store "may be written, is a proper value, fits the cell's type";
   at a return "is a proper value of the kind and name its type says" *)
Ltac wr_tac := first [eapply newvar_wr; eassumption | eapply wr_nonconst_meta; eassumption | eapply wr_ptr_meta; eassumption ].
Ltac valok_tac := first [apply valok_nonrec; intros; discriminate | (eapply resok_payload; eassumption)].
Ltac fits_tac := first [ (eapply cellmeta_fits; [eassumption | kind_tac | name_tac]) | (eapply newvar_fits; [eassumption | kind_tac | name_tac]) ].
Ltac ent :=
  intros; cbv beta in *;
  repeat match goal with H : _ /\ _ |- _ => destruct H end;
  first
   [ assumption
   (* add_var: a variable entered in a record's context is a cell of that context *)
   | (eapply own_from_newvar; eassumption)
   | (eapply own_from_cellmeta; [eassumption | reflexivity | eassumption | eassumption])
   (* set_cell_val; the FOR counter before the loop *)
   | (split; [ wr_tac | split; [ valok_tac | fits_tac ] ])
   | (split; [ wr_tac | fits_tac ])
   (* a cell allocated with a payload of its own (CONSTANT) *)
   | (unfold cell_ok; cbn [c_val c_type]; split; [ valok_tac | split; [ kind_tac | name_tac ] ])
   (* assign_val, store_tree: the target may be written; for the elements of an array because no element is a constant *)
   | wr_tac
   | (apply nonconst_wr; match goal with H : Forall _ _ |- _ => rewrite Forall_forall in H; apply H; assumption end)
   (* copy_array_data: the two arrays, of equal element type *)
   | (eexists; eexists; split; [eassumption | split; [eassumption | (match goal with H : negb (dt_eq _ _) = false |- _ => apply negb_false_iff in H; exact H end)]]) ].

Lemma tr_eval_arith (P : st -> Prop) t c l r : stable P -> tr P (eval_arith t c l r) (fun r s => resok r s).
Proof. intros SP. unfold eval_arith. cbv zeta. ht0. Qed.
Lemma tr_eval_cmp (P : st -> Prop) t c l r : stable P -> tr P (eval_cmp t c l r) (fun r s => resok r s).
Proof. intros SP. unfold eval_cmp. cbv zeta. ht0. Qed.

(* [idtac;] as in ht_call of Lemmas_ConstEval.v: the match must wait until the tactic runs *)
Ltac eval_rule :=
  idtac;
  lazymatch goal with
  | |- tr _ (eval_arith _ _ _ _) _ => apply tr_eval_arith; stab
  | |- tr _ (eval_cmp _ _ _ _) _ => apply tr_eval_cmp; stab
  end.
Ltac ht2 := ht eval_rule.
Ltac hts2 := hts eval_rule.

Section Level.
Variables (ped : bool) (lim : limits) (self : evs).
Hypothesis Hself : evs_ok self.

(* a cast: the result carries the payload cast_prim made *)
Lemma tr_eval_cast (P : st -> Prop) t e target c : stable P -> tr P (eval_body ped lim self (NCast t e target) c) (fun r s => resok r s).
Proof.
  intros SP. unfold eval_body. ht2.
  intros a2 s Hc. cbv beta in Hc. destruct Hc as [-> [_ [Hn [Hk Hpn]]]]. intros p E. cbn in E. inversion E; subst.
  split; [apply valok_nonrec; exact Hn|]. split; [reflexivity|]. apply named_ok_prim. exact Hpn.
Qed.
(* an assignment: the value first -- when there is one it is a proper value, which the store needs *)
Lemma tr_eval_assign (P : st -> Prop) t e r c : stable P -> tr P (eval_body ped lim self (NAssign t e r) c) (fun r s => resok r s).
Proof.
  intros SP. unfold eval_body.
  eapply tr_bind with (Q := fun (vr : option result) s => forall v, vr = Some v -> resok v s); [exact SP| |intros vr].
  { assert (EV : tr P (x <- ev_eval self e c ;; ret (Some x)) (fun (vr : option result) s => forall v, vr = Some v -> resok v s)).
    { eapply tr_bind; [exact SP|apply (ok_eval self Hself); exact SP|]. intros x. eapply tr_post; [apply tr_ret|]. intros a s [-> [_ Hx]] v E. inversion E; subst. exact Hx. }
    destruct (match e with NAccess _ _ => true | _ => false end); [|exact EV].
    apply tr_catch_cls; [exact SP|exact EV|]. intros f. eapply tr_post; [apply tr_ret|]. intros a s [-> _] v E. discriminate E. }
  destruct vr as [v|].
  - eapply tr_pre with (P' := fun s => P s /\ resok v s); [intros s [Hs Hvv]; split; [exact Hs|apply Hvv; reflexivity]|].
    ht2; first [solve [ent] | bad_contra].
  - eapply tr_pre with (P' := P); [intros s [Hs _]; exact Hs|].
    ht2; first [solve [ent] | bad_contra].
Qed.

Lemma tr_eval_body (P : st -> Prop) n c : stable P -> tr P (eval_body ped lim self n c) (fun r s => resok r s).
Proof.
  intros SP. destruct n;
    lazymatch goal with
    | |- tr _ (eval_body _ _ _ (NCast _ _ _) _) _ => apply tr_eval_cast; exact SP
    | |- tr _ (eval_body _ _ _ (NAssign _ _ _) _) _ => apply tr_eval_assign; exact SP
    (* READFILE: the target is found or made in a case split, and the store needs what either branch established *)
    | |- tr _ (eval_body _ _ _ (NReadFile _ _ _) _) _ => unfold eval_body; hts2; first [solve [ent] | bad_contra]
    (* thirty-two cases are closed by [ht2] itself.  It leaves entailments ([ent]) at the stores of NAccess, NPtrAssign, NDeclare,
       NConst, NFor, NReturn, NInput and NGetRecord, and at NPtrAssign the branches only a cell of the wrong class could take *)
    | _ => unfold eval_body; ht2; first [solve [ent] | bad_contra]
    end.
Qed.
End Level.
