(* Lemmas_Out.v — instances of the frame theorem (Lemmas_Frame.v) for the whole evaluator: standard output is
   append-only (and so what a run rejected by --pedantic printed is a prefix of what the accepted run prints), object
   ids only grow, the step counter only grows; and [kept]: a component of the heap keeps its entries, each related to
   what it was (here for the cells, which keep their identity; Lemmas_HeapInv.v has arrays and contexts). *)
From PE2 Require Import Eval Lemmas_Frame Lemmas_Ped.
Local Open Scope Z_scope.

(* ---- standard output is append-only: whatever runs, what was printed stays printed ---- *)
Definition out_ext (s s' : st) : Prop := exists e, s_out s' = e ++ s_out s.
Lemma out_ext_refl s : out_ext s s.
Proof. exists []. reflexivity. Qed.
Lemma out_ext_trans a b c : out_ext a b -> out_ext b c -> out_ext a c.
Proof. intros [e1 H1] [e2 H2]. exists (e2 ++ e1). rewrite H2, H1. apply app_assoc. Qed.

Lemma out_ext_frame : frame_ok out_ext.
Proof.
  constructor; try (intros; exists []; reflexivity).
  - intros s s' H. exists []. apply (core_out _ _ H).
  - intros x s. exists [x]. reflexivity.
Qed.

Definition out_frame {A} := @Pr out_ext A.

Theorem eval_output_append_only ped repl lim fuel n c s :
  exists e, s_out (snd (eval ped repl lim fuel n c s)) = e ++ s_out s.
Proof. apply (Pr_eval out_ext out_ext_refl out_ext_trans out_ext_frame). Qed.

Theorem run_block_output_append_only ped repl lim fuel bl c s :
  exists e, s_out (snd (run_block ped repl lim fuel bl c s)) = e ++ s_out s.
Proof. apply (Pr_run_block out_ext out_ext_refl out_ext_trans out_ext_frame). Qed.

(* the text: out_string is the concatenation of the chunks in print order, so the old text is a prefix *)
Lemma out_ext_prefix s s' : out_ext s s' -> exists more, out_string s' = out_string s ++ more.
Proof.
  intros [e H]. unfold out_string. rewrite H, rev_app_distr, concat_app. eexists. reflexivity.
Qed.

Corollary run_block_keeps_printed_text ped repl lim fuel bl c s :
  exists more, out_string (snd (run_block ped repl lim fuel bl c s)) = out_string s ++ more.
Proof. apply out_ext_prefix. apply run_block_output_append_only. Qed.

(* ---- ids are never handed out twice: the allocation counter only grows ---- *)
Definition next_le (s s' : st) : Prop := (s_next s <= s_next s')%N.
Lemma next_le_frame : frame_ok next_le.
Proof. constructor; unfold next_le; try (intros; cbn; lia). intros s s' H. rewrite (core_next _ _ H). lia. Qed.
Theorem run_block_ids_only_grow ped repl lim fuel bl c s :
  (s_next s <= s_next (snd (run_block ped repl lim fuel bl c s)))%N.
Proof. apply (Pr_run_block next_le (fun s => N.le_refl _) (fun a b c => N.le_trans _ _ _) next_le_frame). Qed.
Theorem eval_ids_only_grow ped repl lim fuel n c s :
  (s_next s <= s_next (snd (eval ped repl lim fuel n c s)))%N.
Proof. apply (Pr_eval next_le (fun s => N.le_refl _) (fun a b c => N.le_trans _ _ _) next_le_frame). Qed.

(* ---- the executed-statement counter only grows (budget hook H1 cannot be reset by a program) ---- *)
Definition steps_le (s s' : st) : Prop := s_steps s <= s_steps s'.
Lemma steps_le_frame : frame_ok steps_le.
Proof. constructor; unfold steps_le; try (intros; cbn; lia). intros s s' H. rewrite (core_steps _ _ H). lia. Qed.
Theorem run_block_steps_only_grow ped repl lim fuel bl c s :
  s_steps s <= s_steps (snd (run_block ped repl lim fuel bl c s)).
Proof. apply (Pr_run_block steps_le (fun s => Z.le_refl _) (fun a b c => Z.le_trans _ _ _) steps_le_frame). Qed.

(* ---- --pedantic: what a rejected run printed is a prefix of what the accepted run prints ---- *)
Theorem run_block_ped_output_prefix repl lim fuel bl c s :
  run_block true repl lim fuel bl c s = run_block false repl lim fuel bl c s \/
  (Lemmas_Ped.ped_fail (run_block true repl lim fuel bl c s) /\
   out_ext (snd (run_block true repl lim fuel bl c s)) (snd (run_block false repl lim fuel bl c s))).
Proof. apply (run_block_ped_frame out_ext out_ext_refl out_ext_trans out_ext_frame). Qed.

(* ---- a component of the heap (cells, arrays, contexts: a map from identifiers) keeps its entries: as long as its
        keys lie below the allocation counter they go on doing so, the counter only grows, and no entry disappears:
        what is found under an identifier later is Rv-related to what was found before ---- *)
Definition below {X} (get : st -> nmap X) (s : st) : Prop := forall id x, nm_get id (get s) = Some x -> (id < s_next s)%N.
Definition kept {X} (get : st -> nmap X) (Rv : X -> X -> Prop) (s s' : st) : Prop :=
  below get s ->
  below get s' /\ (s_next s <= s_next s')%N /\
  forall id x, nm_get id (get s) = Some x -> exists x', nm_get id (get s') = Some x' /\ Rv x x'.

Section Kept.
Context {X : Type} (get : st -> nmap X) (Rv : X -> X -> Prop).
Hypothesis Rv_refl : forall x, Rv x x.
Hypothesis Rv_trans : forall x y z, Rv x y -> Rv y z -> Rv x z.

Lemma kept_same s s' : get s' = get s -> (s_next s <= s_next s')%N -> kept get Rv s s'.
Proof.
  intros Hg Hn Hb. unfold below in *. rewrite Hg. split; [intros id x E; specialize (Hb id x E); lia|]. split; [exact Hn|].
  intros id x E. exists x. split; [exact E|apply Rv_refl].
Qed.
Lemma kept_refl s : kept get Rv s s.
Proof. apply kept_same; [reflexivity|lia]. Qed.
Lemma kept_trans a b c : kept get Rv a b -> kept get Rv b c -> kept get Rv a c.
Proof.
  intros H1 H2 Ha. destruct (H1 Ha) as [Hb [L1 K1]]. destruct (H2 Hb) as [Hc [L2 K2]].
  split; [exact Hc|]. split; [lia|]. intros id x E. destruct (K1 id x E) as [y [Ey My]]. destruct (K2 id y Ey) as [z [Ez Mz]].
  exists z. split; [exact Ez|exact (Rv_trans _ _ _ My Mz)].
Qed.
Lemma kept_put s s' id x : get s' = nm_put id x (get s) -> (s_next s <= s_next s')%N -> (below get s -> (id < s_next s')%N) ->
  (forall y, nm_get id (get s) = Some y -> (id < s_next s)%N -> Rv y x) -> kept get Rv s s'.
Proof.
  intros Hg Hn Hid Hy Hb. specialize (Hid Hb). unfold below in *. rewrite Hg. split; [|split; [exact Hn|]]; intros j y E.
  - destruct (N.eq_dec id j) as [<-|Hne]; [exact Hid|]. rewrite nm_get_put_other in E by exact Hne. specialize (Hb j y E). lia.
  - destruct (N.eq_dec id j) as [<-|Hne].
    + exists x. split; [apply nm_get_put_same|exact (Hy y E (Hb id y E))].
    + exists y. split; [rewrite nm_get_put_other by exact Hne; exact E|apply Rv_refl].
Qed.
End Kept.

(* ---- variables keep their identity: name, declared type, CONSTANT flag and owner of a cell never change, and
        no cell disappears, whatever runs (only payloads change, and only through set_cell_val) ---- *)
Definition same_meta (c c' : cell) : Prop :=
  c_name c' = c_name c /\ c_type c' = c_type c /\ c_const c' = c_const c /\ c_owner c' = c_owner c.
Lemma same_meta_refl c : same_meta c c.
Proof. repeat split. Qed.
Lemma same_meta_trans a b c : same_meta a b -> same_meta b c -> same_meta a c.
Proof. unfold same_meta. intros [H1 [H2 [H3 H4]]] [G1 [G2 [G3 G4]]]. repeat split; congruence. Qed.

Lemma cells_kept_frame : frame_ok (kept s_cells same_meta).
Proof.
  constructor; intros; try (apply kept_same; [exact same_meta_refl|reflexivity|cbn; lia]).
  - apply kept_same; [exact same_meta_refl|apply (core_cells _ _ H)|rewrite (core_next _ _ H); lia].
  - apply (kept_put _ _ same_meta_refl _ _ (s_next s) c); [reflexivity|cbn; lia|cbn; lia|intros; lia].
  - apply (kept_put _ _ same_meta_refl _ _ id (mkCell (c_name c) (c_type c) (c_const c) (c_owner c) v)); [reflexivity|cbn; lia| |].
    + intros Hb. apply (Hb id c H).
    + intros y Ey _. assert (y = c) by congruence. subst y. repeat split.
Qed.

Theorem run_block_keeps_cell_identity ped repl lim fuel bl c s : kept s_cells same_meta s (snd (run_block ped repl lim fuel bl c s)).
Proof.
  apply (Pr_run_block _ (kept_refl _ _ same_meta_refl) (kept_trans _ _ same_meta_trans) cells_kept_frame).
Qed.

(* in particular: a CONSTANT stays flagged, so every guarded write site keeps rejecting it; a variable keeps its type *)
Corollary constant_flag_and_type_are_permanent ped repl lim fuel bl c s id cl :
  below s_cells s -> nm_get id (s_cells s) = Some cl ->
  exists cl', nm_get id (s_cells (snd (run_block ped repl lim fuel bl c s))) = Some cl' /\
              c_const cl' = c_const cl /\ c_type cl' = c_type cl /\ c_name cl' = c_name cl.
Proof.
  intros Hb E. destruct (run_block_keeps_cell_identity ped repl lim fuel bl c s Hb) as [_ [_ K]].
  destruct (K id cl E) as [cl' [E' [M1 [M2 [M3 M4]]]]]. exists cl'. repeat split; assumption.
Qed.
