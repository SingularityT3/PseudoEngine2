(* Lemmas_Control.v — laws of the control-flow combinators (Control.v), for arbitrary condition and body computations (C03):
   IF and CASE chains, WHILE and REPEAT one iteration at a time, what the loops do with BREAK and CONTINUE; and the FOR header as a
   closed form (for_values, for_count: a specification written here, tied to for_loop by the header test for_continues). *)
From PE2 Require Import Control Eval Lemmas_Copy Lemmas_Frame.
From Coq Require Import ZifyBool.
Local Open Scope Z_scope.

Definition rbool (b : bool) : result := res_of KBool (PBool b).
Definition is_signal (f : fail) : bool := match f with FBreak _ | FContinue _ => true | _ => false end.
Definition no_signal {A} (m : M A) : Prop := forall s f s', m s = (Fail f, s') -> is_signal f = false.

Section Laws.
Variable lim : limits.
Variables (t : token) (c : N).

(* bind_fail of Lemmas_Copy.v, every argument explicit *)
Lemma bind_fail {A B} (m : M A) (k : A -> M B) s f s1 : m s = (Fail f, s1) -> bind m k s = (Fail f, s1).
Proof. apply Lemmas_Copy.bind_fail. Qed.

(* ---- a runtime error is a failure, and not a BREAK or CONTINUE signal ---- *)
Lemma no_signal_ret {A} (a : A) : no_signal (ret a).
Proof. intros s f s' H. inversion H. Qed.
Lemma no_signal_bind {A B} (m : M A) (k : A -> M B) : no_signal m -> (forall a, no_signal (k a)) -> no_signal (bind m k).
Proof.
  intros Hm Hk s f s' H. unfold bind in H. destruct (m s) as [[a|f0] s0] eqn:E.
  - eapply Hk; eauto.
  - inversion H; subst. eapply Hm; eauto.
Qed.
Lemma no_signal_crash {A} msg : no_signal (@crash A msg).
Proof. intros s f s' H. inversion H; reflexivity. Qed.
Lemma no_signal_error {A} cls tk cx : no_signal (@runtime_error_cls A cls tk cx).
Proof.
  intros s f s' H. destruct (@runtime_error_fails A cls tk cx s) as [f0 [E G]]. rewrite E in H. inversion H; subst f0.
  destruct f; (reflexivity || contradiction).
Qed.

Lemma cond_bool_value ce s s1 v : ce s = (Ok (rbool v), s1) -> cond_bool t c ce s = (Ok v, s1).
Proof. intros H. unfold cond_bool. rewrite (bind_ok H). reflexivity. Qed.
Lemma cond_bool_not_boolean ce s s1 r : ce s = (Ok r, s1) -> dk (r_type r) <> KBool -> cond_bool t c ce s = rt_error t c s1.
Proof.
  intros H Hk. unfold cond_bool. rewrite (bind_ok H).
  rewrite (not_true_is_false _ (fun E => Hk (proj1 (dk_eqb_eq _ _) E))). reflexivity.
Qed.

(* ---- IF: exactly the first branch whose condition is TRUE (or ELSE) ---- *)
Lemma if_test ce b rest s s1 v :
  ce s = (Ok (rbool v), s1) -> if_chain t c ((Some ce, b) :: rest) s = (if v then b ;;; ret res_none else if_chain t c rest) s1.
Proof. intros H. cbn [if_chain]. rewrite (bind_ok (cond_bool_value _ _ _ _ H)). reflexivity. Qed.

Lemma if_else b rest s : if_chain t c ((None, b) :: rest) s = (b ;;; ret res_none) s.
Proof. reflexivity. Qed.

Lemma if_none_left s : if_chain t c [] s = (Ok res_none, s).
Proof. reflexivity. Qed.

Lemma if_condition_not_boolean ce b rest s s1 r :
  ce s = (Ok r, s1) -> dk (r_type r) <> KBool ->
  forall x s2, if_chain t c ((Some ce, b) :: rest) s <> (Ok x, s2).
Proof.
  intros H Hk x s2. destruct (@rt_error_pure bool t c s1) as [f F].
  cbn [if_chain]. erewrite bind_fail; [discriminate|]. rewrite (cond_bool_not_boolean _ _ _ _ H Hk). exact F.
Qed.

(* ---- CASE: exactly the first clause that matches ---- *)
Lemma case_test m b rest s s1 v :
  m s = (Ok v, s1) -> case_chain ((m, b) :: rest) s = (if v then b ;;; ret res_none else case_chain rest) s1.
Proof. intros H. cbn [case_chain]. rewrite (bind_ok H). reflexivity. Qed.
Lemma case_none_left s : case_chain [] s = (Ok res_none, s).
Proof. reflexivity. Qed.

(* ---- WHILE tests before, REPEAT after every iteration (also one ended by CONTINUE) ---- *)
Lemma while_unfold k ce br :
  while_loop lim (S k) t c ce br =
  (tick lim t c ;;; v <- cond_bool t c ce ;;
   if negb v then ret res_none else go_on <- run_body br ;; if go_on then while_loop lim k t c ce br else ret res_none).
Proof. reflexivity. Qed.

Lemma repeat_unfold k ce br :
  repeat_loop lim (S k) t c ce br =
  (tick lim t c ;;; go_on <- run_body br ;;
   if negb go_on then ret res_none else v <- cond_bool t c ce ;; if v then ret res_none else repeat_loop lim k t c ce br).
Proof. reflexivity. Qed.

Lemma run_body_continue br s s1 tk : br s = (Fail (FContinue tk), s1) -> run_body br s = (Ok true, s1).
Proof. intros H. unfold run_body, catch, bind. rewrite H. reflexivity. Qed.
Lemma run_body_break br s s1 tk : br s = (Fail (FBreak tk), s1) -> run_body br s = (Ok false, s1).
Proof. intros H. unfold run_body, catch, bind. rewrite H. reflexivity. Qed.
Lemma run_body_normal br s s1 : br s = (Ok Datatypes.tt, s1) -> run_body br s = (Ok true, s1).
Proof. intros H. unfold run_body, catch, bind. rewrite H. reflexivity. Qed.

(* after an iteration that CONTINUE ended, REPEAT still evaluates its UNTIL condition *)
Lemma repeat_continue_tests_until k ce br s s0 s1 s2 tk :
  tick lim t c s = (Ok Datatypes.tt, s0) -> br s0 = (Fail (FContinue tk), s1) -> ce s1 = (Ok (rbool true), s2) ->
  repeat_loop lim (S k) t c ce br s = (Ok res_none, s2).
Proof.
  intros Ht Hb Hc. rewrite repeat_unfold. rewrite (bind_ok Ht).
  rewrite (bind_ok (run_body_continue _ _ _ _ Hb)). cbn [negb].
  rewrite (bind_ok (cond_bool_value _ _ _ _ Hc)). reflexivity.
Qed.

(* ---- loops absorb BREAK and CONTINUE: they never leave a loop ---- *)
Lemma no_signal_tick : no_signal (tick lim t c).
Proof.
  unfold tick. apply no_signal_bind; [intros s f s' H; inversion H|]. intros a.
  destruct ((0 <? max_steps lim) && (max_steps lim <? a + 1)); [apply no_signal_error|]. intros s f s' H. inversion H.
Qed.
Lemma no_signal_cond ce : no_signal ce -> no_signal (cond_bool t c ce).
Proof.
  intros H. unfold cond_bool. apply no_signal_bind; [exact H|]. intros r.
  destruct (negb (dk_eqb (dk (r_type r)) KBool)); [apply no_signal_error|].
  unfold as_bool. destruct (r_val r) as [[]|]; try apply no_signal_crash. apply no_signal_ret.
Qed.
Lemma no_signal_run_body br : no_signal (run_body br).
Proof.
  intros s f s' H. unfold run_body, catch, bind in H. destruct (br s) as [[[]|f0] s0] eqn:E.
  - inversion H.
  - destruct f0; inversion H; subst; reflexivity.
Qed.

Lemma while_absorbs_signals k ce br : no_signal ce -> no_signal (while_loop lim k t c ce br).
Proof.
  intros Hc. induction k as [|k IH]; [intros s f s' H; inversion H; reflexivity|].
  rewrite while_unfold. apply no_signal_bind; [apply no_signal_tick|]. intros _.
  apply no_signal_bind; [apply no_signal_cond; exact Hc|]. intros v.
  destruct (negb v); [apply no_signal_ret|]. apply no_signal_bind; [apply no_signal_run_body|].
  intros g. destruct g; [exact IH|apply no_signal_ret].
Qed.

Lemma repeat_absorbs_signals k ce br : no_signal ce -> no_signal (repeat_loop lim k t c ce br).
Proof.
  intros Hc. induction k as [|k IH]; [intros s f s' H; inversion H; reflexivity|].
  rewrite repeat_unfold. apply no_signal_bind; [apply no_signal_tick|]. intros _.
  apply no_signal_bind; [apply no_signal_run_body|]. intros g.
  destruct (negb g); [apply no_signal_ret|]. apply no_signal_bind; [apply no_signal_cond; exact Hc|].
  intros v. destruct v; [apply no_signal_ret|exact IH].
Qed.

Lemma no_signal_get_cell id : no_signal (get_cell id).
Proof. intros s f s' H. unfold get_cell in H. destruct (nm_get id (s_cells s)); inversion H; reflexivity. Qed.

Lemma no_signal_int_payload {A} p (k : Z -> M A) w : (forall i, no_signal (k i)) -> no_signal (match p with PInt i => k i | _ => crash w end).
Proof. intros H. destruct p; try apply no_signal_crash. apply H. Qed.

Lemma for_absorbs_signals k it stepv stop br : no_signal (for_loop lim k t c it stepv stop br).
Proof.
  induction k as [|k IH]; [intros s f s' H; inversion H; reflexivity|].
  cbn [for_loop]. apply no_signal_bind; [apply no_signal_get_cell|]. intros cl. apply no_signal_int_payload. intros i.
  destruct (for_continues stepv i stop); [|apply no_signal_ret].
  apply no_signal_bind; [apply no_signal_tick|]. intros _.
  apply no_signal_bind; [apply no_signal_run_body|]. intros g.
  destruct (negb g); [apply no_signal_ret|]. apply no_signal_bind; [apply no_signal_get_cell|]. intros cl'.
  apply no_signal_int_payload. intros j. apply no_signal_bind; [|intros _; exact IH].
  unfold set_cell_val. apply no_signal_bind; [apply no_signal_get_cell|]. intros c0 s f s' H. inversion H.
Qed.
End Laws.

(* ---- FOR: the iteration sequence and the final iterator value (closed form of the header test) ---- *)
(* a specification written here, not the model's for_loop: the values the header test for_continues lets through, starting at i *)
Fixpoint for_values (fuel : nat) (i stop stepv : Z) : list Z * Z :=
  match fuel with
  | O => ([], i)
  | S f => if for_continues stepv i stop
           then let '(l, fin) := for_values f (i + stepv) stop stepv in (i :: l, fin)
           else ([], i)
  end.
Definition for_count (start stop stepv : Z) : Z := Z.max 0 ((stop - start) / stepv + 1).
Fixpoint seq_from (n : nat) (a stepv : Z) : list Z :=
  match n with O => [] | S n' => a :: seq_from n' (a + stepv) stepv end.

(* the header test, in closed form: the number of iterations still to run is positive *)
Lemma for_continues_count stepv a stop : stepv <> 0 -> for_continues stepv a stop = (0 <? (stop - a) / stepv + 1).
Proof. intros H. unfold for_continues. destruct (stepv <? 0) eqn:E; Z.div_mod_to_equations; nia. Qed.

Lemma count_shift start stop stepv k : stepv <> 0 -> (stop - (start + k * stepv)) / stepv = (stop - start) / stepv - k.
Proof.
  intros H. replace (stop - (start + k * stepv)) with (stop - start + - k * stepv) by ring.
  rewrite Z.div_add by exact H. ring.
Qed.

Lemma for_values_spec : forall n fuel start stop stepv, stepv <> 0 ->
  Z.of_nat n = for_count start stop stepv -> (n < fuel)%nat ->
  for_values fuel start stop stepv = (seq_from n start stepv, start + Z.of_nat n * stepv).
Proof.
  induction n as [|n IH]; intros [|f] start stop stepv Hs Hn Hf; try lia; cbn [for_values seq_from];
    rewrite (for_continues_count _ _ _ Hs); unfold for_count in Hn.
  - destruct (0 <? _) eqn:E; [lia|]. f_equal; lia.
  - destruct (0 <? _) eqn:E; [|lia]. rewrite (IH f (start + stepv) stop stepv Hs); [f_equal; lia| |lia].
    unfold for_count. replace (start + stepv) with (start + 1 * stepv) by ring. rewrite count_shift by exact Hs. lia.
Qed.

(* the final value is the first one past stop in the direction of step *)
Lemma for_final_past_stop start stop stepv : stepv <> 0 ->
  let n := for_count start stop stepv in
  for_continues stepv (start + n * stepv) stop = false /\
  (0 < n -> for_continues stepv (start + (n - 1) * stepv) stop = true).
Proof.
  intros Hs n. rewrite !(for_continues_count _ _ _ Hs), !count_shift by exact Hs. subst n. unfold for_count. lia.
Qed.

(* the evaluator's loops are these combinators (the level of the record is its fuel) *)
Lemma eval_while ped repl lim f t cond body c :
  eval ped repl lim (S f) (NWhile t cond body) c = while_loop lim f t c (eval ped repl lim f cond c) (run_block ped repl lim f body c).
Proof. unfold eval, run_block. cbn [evs_at evs_step ev_eval eval_body]. rewrite ev_fuel_at. reflexivity. Qed.
Lemma eval_repeat ped repl lim f t cond body c :
  eval ped repl lim (S f) (NRepeat t cond body) c = repeat_loop lim f t c (eval ped repl lim f cond c) (run_block ped repl lim f body c).
Proof. unfold eval, run_block. cbn [evs_at evs_step ev_eval eval_body]. rewrite ev_fuel_at. reflexivity. Qed.
