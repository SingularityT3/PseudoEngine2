(* Lemmas_Numerals.v — decimal numerals: printing an integer and reading the digits back gives the integer,
   for every integer; used by the record codec (C13) and the conversions (C17).  Built on that: the
   scalar fields of a record (INTEGER, DATE, BOOLEAN, enumerated, STRING) read back, and the STRING -> INTEGER conversion. *)
From PE2 Require Import Codec Lemmas_Codec.
Require Import ZifyBool.
Local Open Scope Z_scope.

Lemma forallb_impl {A} (p q : A -> bool) l : (forall x, p x = true -> q x = true) -> forallb p l = true -> forallb q l = true.
Proof. rewrite !forallb_forall. auto. Qed.

Lemma Some_inj {A} (x y : A) : Some x = Some y -> x = y.
Proof. congruence. Qed.

Lemma aeqb_differ (p : ascii -> bool) c d : p c <> p d -> aeqb c d = false.
Proof. intros H. apply Ascii.eqb_neq. intros ->. exact (H eq_refl). Qed.

Definition digit_char (n : Z) : ascii := ascii_of_z (48 + n).

Lemma digit_char_spec n : 0 <= n < 10 -> is_digit (digit_char n) = true /\ digit_val (digit_char n) = n.
Proof.
  intros H. assert (E : zcode (digit_char n) = 48 + n).
  { unfold zcode, digit_char, ascii_of_z. rewrite Z.mod_small, N_ascii_embedding by lia. lia. }
  unfold is_digit, digit_val. rewrite E. lia.
Qed.

Lemma digits_to_z_snoc ds c : digits_to_z (ds ++ [c]) = digits_to_z ds * 10 + digit_val c.
Proof. unfold digits_to_z. generalize 0. induction ds as [|d r IH]; intros a; [reflexivity|apply IH]. Qed.

Definition numeral_of (n : Z) (ds : str) : Prop := ds <> [] /\ forallb is_digit ds = true /\ digits_to_z ds = n.

Lemma numeral_one n : 0 <= n < 10 -> numeral_of n [digit_char n].
Proof.
  intros Hn. destruct (digit_char_spec n Hn) as [D1 D2]. split; [discriminate|]. split; [cbn; rewrite D1; reflexivity|exact D2].
Qed.
Lemma numeral_snoc n ds : numeral_of (n / 10) ds -> numeral_of n (ds ++ [digit_char (n mod 10)]).
Proof.
  intros (Hne & Hd & Hv). destruct (digit_char_spec (n mod 10) ltac:(apply Z.mod_pos_bound; lia)) as [D1 D2].
  split; [destruct ds; discriminate|]. split; [rewrite forallb_app, Hd; cbn; rewrite D1; reflexivity|].
  rewrite digits_to_z_snoc, Hv, D2. pose proof (Z.div_mod n 10 ltac:(lia)). lia.
Qed.

(* the printer: digits, most significant first, put in front of acc *)
Lemma pos_digits_spec : forall fuel n acc, fuel <> O -> 0 <= n < 10 ^ Z.of_nat fuel ->
  exists ds, pos_digits_aux fuel n acc = ds ++ acc /\ numeral_of n ds.
Proof.
  induction fuel as [|f IH]; intros n acc Hf H; [congruence|]. cbn [pos_digits_aux]. destruct (n <? 10) eqn:E.
  { exists [digit_char n]. split; [reflexivity|apply numeral_one; lia]. }
  rewrite Nat2Z.inj_succ, Z.pow_succ_r in H by lia.
  destruct (IH (n / 10) (digit_char (n mod 10) :: acc)) as (ds & E1 & Hds).
  { intros ->. change (10 ^ Z.of_nat 0) with 1 in H. lia. }
  { split; [apply Z.div_pos; lia|]. apply Z.div_lt_upper_bound; lia. }
  exists (ds ++ [digit_char (n mod 10)]). unfold digit_char in *. rewrite E1, <- app_assoc.
  split; [reflexivity|apply numeral_snoc; exact Hds].
Qed.

Lemma fuel_enough n : 0 <= n -> n < 10 ^ Z.of_nat (S (Z.to_nat (Z.log2 n + 1))).
Proof.
  intros H. pose proof (Z.log2_nonneg n) as L. rewrite Nat2Z.inj_succ, Z2Nat.id, <- Z.add_1_r by lia.
  destruct (Z.eq_dec n 0) as [->|Hn]; [reflexivity|].
  pose proof (proj2 (Z.log2_spec n ltac:(lia))) as H1. rewrite <- Z.add_1_r in H1.
  pose proof (Z.pow_le_mono_l 2 10 (Z.log2 n + 1) ltac:(lia)).
  pose proof (Z.pow_le_mono_r 10 (Z.log2 n + 1) (Z.log2 n + 1 + 1) ltac:(lia) ltac:(lia)). lia.
Qed.

Lemma nat_digits_spec n : 0 <= n ->
  nat_digits n <> [] /\ forallb is_digit (nat_digits n) = true /\ digits_to_z (nat_digits n) = n.
Proof.
  intros H. unfold nat_digits. destruct (pos_digits_spec _ n [] (Nat.neq_succ_0 _) (conj H (fuel_enough n H))) as (ds & -> & Hds).
  rewrite app_nil_r. exact Hds.
Qed.

Lemma z_to_str_spec z : exists ds, ds <> [] /\ forallb is_digit ds = true /\ digits_to_z ds = Z.abs z /\
  z_to_str z = if z <? 0 then "-"%char :: ds else ds.
Proof.
  destruct (nat_digits_spec (Z.abs z) (Z.abs_nonneg z)) as (Hn & Hd & Hv). exists (nat_digits (Z.abs z)).
  repeat split; try assumption. unfold z_to_str. destruct (z <? 0) eqn:E; f_equal; f_equal; lia.
Qed.

(* take_digits and take_word are the same loop over two predicates: on w ++ rest, where every character of w passes and rest
   does not begin with one that does, it splits exactly there *)
Section TakeWhile.
  Variables (p : ascii -> bool) (take : str -> str -> str * str).
  Hypothesis take_eq : forall s acc, take s acc =
    match s with [] => (rev acc, []) | c :: r => if p c then take r (c :: acc) else (rev acc, s) end.
  Lemma take_app w : forall acc rest, forallb p w = true -> match rest with c :: _ => p c = false | [] => True end ->
    take (w ++ rest) acc = (rev acc ++ w, rest).
  Proof.
    induction w as [|c r IH]; intros acc rest Hw Hr; rewrite take_eq; cbn [app].
    - rewrite app_nil_r. destruct rest; [|rewrite Hr]; reflexivity.
    - cbn [forallb] in Hw. apply andb_true_iff in Hw. destruct Hw as [-> Hw]. rewrite IH by assumption.
      cbn [rev]. rewrite <- app_assoc. reflexivity.
  Qed.
End TakeWhile.

(* reading digits stops at the first non-digit *)
Definition no_leading_digit (s : str) : Prop := match s with c :: _ => is_digit c = false | [] => True end.

Lemma take_digits_app ds acc rest : forallb is_digit ds = true -> no_leading_digit rest ->
  take_digits (ds ++ rest) acc = (rev acc ++ ds, rest).
Proof. apply (take_app is_digit take_digits). intros [|c r] acc'; reflexivity. Qed.

Lemma digit_not_space c : is_digit c = true -> is_cspace c = false.
Proof. unfold is_digit, is_cspace. lia. Qed.
Lemma digit_not_sign c : is_digit c = true -> aeqb c "-" = false /\ aeqb c "+" = false.
Proof. intros H. split; apply (aeqb_differ is_digit); rewrite H; discriminate. Qed.

Lemma rd_integer_digits lo hi ds rest : ds <> [] -> forallb is_digit ds = true -> no_leading_digit rest ->
  rd_integer lo hi (ds ++ rest) =
  (if (lo <=? digits_to_z ds) && (digits_to_z ds <=? hi) then Some (digits_to_z ds, rest) else None).
Proof.
  intros Hn Hd Hr. pose proof (take_digits_app ds [] rest Hd Hr) as T. destruct ds as [|c r]; [congruence|].
  cbn [forallb] in Hd. apply andb_true_iff in Hd. destruct Hd as [Hc _]. destruct (digit_not_sign c Hc) as [S1 S2].
  unfold rd_integer. cbn [app skip_space] in *. rewrite (digit_not_space c Hc). cbv zeta. rewrite S1, S2, T. reflexivity.
Qed.

(* operator>> into an integer type reads back what z_to_str printed *)
Theorem rd_integer_z_to_str lo hi z rest : lo <= z <= hi -> no_leading_digit rest ->
  rd_integer lo hi (z_to_str z ++ rest) = Some (z, rest).
Proof.
  intros Hz Hr. destruct (z_to_str_spec z) as (ds & Hn & Hd & Hv & ->).
  assert (B : (lo <=? z) && (z <=? hi) = true) by lia. destruct (z <? 0) eqn:E.
  - unfold rd_integer. cbn [app skip_space]. change (is_cspace "-") with false. cbv iota zeta. change (aeqb "-" "-") with true. cbv iota.
    rewrite take_digits_app by assumption. cbn [rev app]. destruct ds; [congruence|]. rewrite Hv.
    replace (- Z.abs z) with z by lia. rewrite B. reflexivity.
  - rewrite rd_integer_digits, Hv by assumption. replace (Z.abs z) with z by lia. rewrite B. reflexivity.
Qed.

(* with blanks in front, as between the fields of a record *)
Lemma rd_integer_skip_blank lo hi s : rd_integer lo hi (sp ++ s) = rd_integer lo hi s.
Proof. reflexivity. Qed.
Theorem rd_integer_after_blank lo hi z rest : lo <= z <= hi -> no_leading_digit rest ->
  rd_integer lo hi (sp ++ z_to_str z ++ rest) = Some (z, rest).
Proof. rewrite rd_integer_skip_blank. apply rd_integer_z_to_str. Qed.

Definition word_end (s : str) : Prop := match s with c :: _ => is_cspace c = true | [] => True end.
Definition no_space (w : str) : bool := forallb (fun c => negb (is_cspace c)) w.

Lemma take_word_app w acc rest : no_space w = true -> word_end rest -> take_word (w ++ rest) acc = (rev acc ++ w, rest).
Proof.
  intros Hw Hr. apply (take_app (fun c => negb (is_cspace c)) take_word); [|exact Hw|].
  - intros [|c r] acc'; [reflexivity|]. cbn [take_word]. destruct (is_cspace c); reflexivity.
  - destruct rest; [exact I|]. cbn in Hr |- *. rewrite Hr. reflexivity.
Qed.

Lemma rd_word_app w rest : w <> [] -> no_space w = true -> word_end rest -> rd_word (w ++ rest) = Some (w, rest).
Proof.
  intros Hn Hw Hr. pose proof (take_word_app w [] rest Hw Hr) as T. destruct w as [|c r]; [congruence|].
  cbn in Hw. apply andb_true_iff in Hw. destruct Hw as [Hc _]. apply negb_true_iff in Hc.
  unfold rd_word. cbn [app skip_space] in *. rewrite Hc, T. reflexivity.
Qed.
Lemma rd_word_skip_blank s : rd_word (sp ++ s) = rd_word s.
Proof. reflexivity. Qed.
Lemma expect_tag_skip_blank tag s : expect_tag tag (sp ++ s) = expect_tag tag s.
Proof. reflexivity. Qed.

Lemma str_of_string_app a b : str_of_string (a ++ b) = str_of_string a ++ str_of_string b.
Proof. induction a as [|c a IH]; [reflexivity|]. cbn. rewrite IH. reflexivity. Qed.

Lemma expect_tag_app tag x : str_of_string tag <> [] -> no_space (str_of_string tag) = true ->
  expect_tag tag (str_of_string (tag ++ " ") ++ x) = Some (sp ++ x).
Proof.
  intros Hn Hw. unfold expect_tag. rewrite str_of_string_app, <- app_assoc, rd_word_app, str_eqb_refl by (assumption || reflexivity).
  reflexivity.
Qed.

Lemma digits_no_space ds : forallb is_digit ds = true -> no_space ds = true.
Proof. apply forallb_impl. intros c H. rewrite (digit_not_space c H). reflexivity. Qed.

Theorem int_field_roundtrip z rest old : int64_min <= z <= int64_max -> no_leading_digit rest ->
  load (VInt old) (str_of_string "INTEGER " ++ z_to_str z ++ rest) = (VInt z, rest, true).
Proof.
  intros Hz Hr. cbn [load]. rewrite (expect_tag_app "INTEGER") by (discriminate || reflexivity).
  unfold rd_long. rewrite rd_integer_after_blank by assumption. reflexivity.
Qed.

Theorem date_field_roundtrip d m y rest d0 m0 y0 : 0 <= d <= 255 -> 0 <= m <= 255 -> -32768 <= y <= 32767 -> no_leading_digit rest ->
  load (VDate d0 m0 y0) (str_of_string "DATE " ++ z_to_str d ++ sp ++ z_to_str m ++ sp ++ z_to_str y ++ rest) = (VDate d m y, rest, true).
Proof.
  intros Hd Hm Hy Hr. cbn [load]. rewrite (expect_tag_app "DATE") by (discriminate || reflexivity). unfold rd_uint, rd_int.
  rewrite !rd_integer_after_blank by (lia || reflexivity || exact Hr).
  unfold narrow_u8, narrow_i16. rewrite !Z.mod_small by lia. replace (y + 32768 - 32768) with y by lia. reflexivity.
Qed.

Theorem bool_field_roundtrip (b : bool) rest old : word_end rest ->
  load (VBool old) (str_of_string (if b then "BOOLEAN TRUE"%string else "BOOLEAN FALSE"%string) ++ rest) = (VBool b, rest, true).
Proof.
  intros Hr. set (w := str_of_string (if b then "TRUE" else "FALSE")%string).
  replace (str_of_string (if b then "BOOLEAN TRUE" else "BOOLEAN FALSE")%string) with (str_of_string "BOOLEAN " ++ w) by (destruct b; reflexivity).
  rewrite <- app_assoc. cbn [load]. rewrite (expect_tag_app "BOOLEAN") by (discriminate || reflexivity).
  rewrite rd_word_skip_blank, rd_word_app by (exact Hr || destruct b; (discriminate || reflexivity)). destruct b; reflexivity.
Qed.

Theorem enum_field_roundtrip tn size idx old rest : tn <> [] -> no_space tn = true -> 0 <= idx < size -> size <= two64 -> no_leading_digit rest ->
  load (VEnum tn size old) (str_of_string "ENUM " ++ tn ++ sp ++ z_to_str idx ++ rest) = (VEnum tn size idx, rest, true).
Proof.
  intros Hn Hs Hi Hsz Hr. cbn [load]. rewrite (expect_tag_app "ENUM") by (discriminate || reflexivity).
  rewrite rd_word_skip_blank, rd_word_app, str_eqb_refl by (assumption || reflexivity).
  unfold rd_size. rewrite rd_integer_after_blank by (unfold two64 in *; lia || exact Hr).
  destruct (idx <? size) eqn:E; [reflexivity|lia].
Qed.

Theorem string_field_roundtrip s rest old : slen' (mark_newlines s) < two64 ->
  load (VStr old) (str_of_string "STRING " ++ z_to_str (slen' (mark_newlines s)) ++ sp ++ mark_newlines s ++ rest) = (VStr s, rest, true).
Proof.
  unfold slen'. intros Hlen. set (m := mark_newlines s) in *.
  destruct (z_to_str_spec (Z.of_nat (List.length m))) as (ds & Hne & Hd & Hv & ->). rewrite Z.abs_eq in Hv by lia.
  replace (_ <? 0) with false by lia. cbn [load]. rewrite (expect_tag_app "STRING") by (discriminate || reflexivity).
  rewrite rd_word_skip_blank, rd_word_app by (assumption || reflexivity || (apply digits_no_space; assumption)).
  rewrite Hd, Hv. replace (_ <? two64) with true by lia. cbn [andb sp app]. unfold slen'. rewrite app_length, Nat2Z.id.
  replace (_ <=? _) with true by lia. unfold m. rewrite string_payload_roundtrip. reflexivity.
Qed.

(* ---- STRING -> INTEGER conversion (String::toInteger: INTEGER("..."), INPUT into an INTEGER) ---- *)
Lemma cstr_no_nul s : forallb (fun c => negb (aeqb c ch_nul)) s = true -> cstr s = s.
Proof.
  induction s as [|c r IH]; [reflexivity|]. cbn [cstr forallb]. intros H. apply andb_true_iff in H. destruct H as [Hc Hr].
  apply negb_true_iff in Hc. rewrite Hc, (IH Hr). reflexivity.
Qed.
Lemma cstr_digits ds : forallb is_digit ds = true -> cstr ds = ds.
Proof.
  intros H. apply cstr_no_nul. revert H. apply forallb_impl. intros c H.
  rewrite (aeqb_differ is_digit c ch_nul); [reflexivity|rewrite H; discriminate].
Qed.

Definition clamp64 (v : Z) : Z := if v <? int64_min then int64_min else if int64_max <? v then int64_max else v.

(* strtol on a string that operator>> would read to its end: the same number, saturated instead of refused *)
Lemma string_to_int_reads lo hi s v : cstr s = s -> rd_integer lo hi s = Some (v, []) -> string_to_int s = clamp64 v.
Proof.
  intros Hc. unfold string_to_int, rd_integer. rewrite Hc. cbv zeta. destruct s as [|c0 s0]; [discriminate|]. set (s := c0 :: s0).
  destruct (match skip_space s with [] => _ | x :: r => _ end) as [neg s2]. destruct (take_digits s2 []) as [[|d ds] r]; [discriminate|].
  destruct (_ && _); [|discriminate]. intros H. injection H as <- ->. reflexivity.
Qed.

(* every non-empty string of decimal digits converts to the number it denotes (saturating at the 64-bit range) *)
Theorem string_to_int_digits ds : ds <> [] -> forallb is_digit ds = true -> string_to_int ds = clamp64 (digits_to_z ds).
Proof.
  intros Hn Hd. pose proof (rd_integer_digits (digits_to_z ds) (digits_to_z ds) ds [] Hn Hd I) as R.
  rewrite app_nil_r, Z.leb_refl in R. exact (string_to_int_reads _ _ ds _ (cstr_digits ds Hd) R).
Qed.

Theorem string_to_int_z_to_str z : int64_min <= z <= int64_max -> string_to_int (z_to_str z) = z.
Proof.
  intros Hz. pose proof (rd_integer_z_to_str z z z [] ltac:(lia) I) as R. rewrite app_nil_r in R.
  rewrite (string_to_int_reads z z (z_to_str z) z); [| |exact R].
  - unfold clamp64. destruct (z <? int64_min) eqn:B1; [lia|]. destruct (int64_max <? z) eqn:B2; [lia|]. reflexivity.
  - destruct (z_to_str_spec z) as (ds & _ & Hd & _ & ->). destruct (z <? 0); cbn [cstr]; rewrite cstr_digits by exact Hd; reflexivity.
Qed.
