(* Lemmas_ConstStates.v -- attempts on a constant, statement by statement, in every state: defining a constant (or anything) under a
   name the context already has, INPUT into a constant, READFILE into a constant are runtime errors that leave the whole state --
   the constant included -- exactly as it was.  (Assignment: C08_assignment_to_constant_no_effect; over all programs:
   C08_constants_never_change.) *)
From PE2 Require Import Eval Lemmas_Store.
Local Open Scope N_scope.

Section Attempts.
Variables (ped repl : bool) (lim : limits) (fuel : nat).

Theorem constant_under_an_existing_name_is_an_error t v id c s r i :
  ev_eval (evs_at ped repl lim fuel) v c s = (Ok r, s) -> lookup_var c (tval id) false s = (Ok (Some i), s) ->
  exists f, ev_eval (evs_at ped repl lim (S fuel)) (NConst t v id) c s = (Fail f, s).
Proof.
  intros He Hl. rewrite eval_S. cbn [eval_body]. rewrite (bind_ok He), (bind_ok Hl). apply rt_error_pure.
Qed.

Theorem input_into_a_constant_is_an_error t r c s id cl :
  ev_resolve (evs_at ped repl lim fuel) r c s = (Ok (HVar id), s) -> nm_get id (s_cells s) = Some cl -> c_const cl = true ->
  exists f, ev_eval (evs_at ped repl lim (S fuel)) (NInput t r) c s = (Fail f, s).
Proof.
  intros Hr Ec Hc. rewrite eval_S. cbn [eval_body]. rewrite (input_target Hr), (bind_ok (get_cell_at Ec)), Hc. apply rt_error_pure.
Qed.

Theorem readfile_into_a_constant_is_an_error t name id c s fh vid cl :
  find_file (tval name) (s_files s) = Some fh -> of_mode fh = FRead ->
  lookup_var c (tval id) true s = (Ok (Some vid), s) -> nm_get vid (s_cells s) = Some cl -> dk (c_type cl) = KStr -> c_const cl = true ->
  exists f, ev_eval (evs_at ped repl lim (S (S fuel))) (NReadFile t (NStr name) id) c s = (Fail f, s).
Proof.
  intros Hf Hm Hl Ec Hk%dt_is_true Hc.
  rewrite eval_S. cbn [eval_body]. rewrite (file_name_first eval_NStr), Hf, Hm, (bind_ok Hl), bind_assoc, (bind_ok (get_cell_at Ec)), Hk, Hc.
  destruct (@rt_error_pure N t c s) as [f E]. rewrite (bind_fail E). eauto.
Qed.
End Attempts.
