(* Lemmas_HeapIds.v — identifiers of contexts are never reused (C09): a new context gets the identifier just taken from the counter,
   under which nothing existed; a context is on its own chain, the unset owner 0 not on that of a root context. *)
From PE2 Require Import Heap Lemmas_Copy Lemmas_DeepCopy.
Local Open Scope Z_scope.

Definition ctx_ids_below (s : st) : Prop := forall id x, nm_get id (s_ctxs s) = Some x -> (id < s_next s)%N.

Lemma new_ctx_spec parent name isfun isrec rett s id s' : new_ctx parent name isfun isrec rett s = (Ok id, s') ->
  exists d, id = s_next s /\ s' = alloc_ctx (mkCtx parent name [] [] [] [] [] isfun isrec rett None None d) s.
Proof.
  unfold new_ctx, bind. destruct parent as [p|]; [unfold get_ctx; destruct (nm_get p (s_ctxs s)) as [pc|]; [|discriminate]|];
    intros H; inversion H; eexists; split; reflexivity.
Qed.

(* a new context (an activation, a record) gets an identifier that no context has or ever had *)
Lemma new_ctx_is_fresh parent name isfun isrec rett s id s' :
  ctx_ids_below s -> new_ctx parent name isfun isrec rett s = (Ok id, s') ->
  nm_get id (s_ctxs s) = None /\ id = s_next s /\ ctx_ids_below s' /\ (s_next s < s_next s')%N /\
  (forall j x, nm_get j (s_ctxs s) = Some x -> nm_get j (s_ctxs s') = Some x).
Proof.
  intros Hb H. destruct (new_ctx_spec _ _ _ _ _ _ _ _ H) as [d [-> ->]].
  destruct (grown_put (s_next s) (mkCtx parent name [] [] [] [] [] isfun isrec rett None None d) (s_ctxs s) Hb) as [B Inc].
  exact (conj (nm_below_none _ _ _ Hb (N.le_refl _)) (conj eq_refl (conj B (conj (N.lt_succ_diag_r _) Inc)))).
Qed.

(* the liveness walk: a context is on its own chain *)
Lemma on_chain_self c s cx : nm_get c (s_ctxs s) = Some cx -> on_chain c c s = (Ok true, s).
Proof. intros H. unfold on_chain. rewrite (bind_ok (get_ctx_at H)). cbn [on_chain_aux]. rewrite N.eqb_refl. reflexivity. Qed.

(* 0 is the owner recorded in a pointer that was never set *)
Lemma on_chain_unset_root c s cx : nm_get c (s_ctxs s) = Some cx -> x_parent cx = None -> c <> 0%N -> on_chain c 0%N s = (Ok false, s).
Proof.
  intros H Hp Hc%N.eqb_neq. unfold on_chain. rewrite (bind_ok (get_ctx_at H)). cbn [on_chain_aux].
  rewrite Hc, (bind_ok (get_ctx_at H)), Hp. reflexivity.
Qed.
