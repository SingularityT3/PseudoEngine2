(* Lemmas_Dates.v — the calendar of Dates.v (C18): SETDATE and date literals accept exactly the valid Gregorian dates, the comparison
   key is monotone and injective, the weekday advances by one per day. *)
From PE2 Require Import Dates.
From Coq Require Import ZifyBool.
Local Open Scope Z_scope.

Definition lex_lt (d1 m1 y1 d2 m2 y2 : Z) : Prop :=
  y1 < y2 \/ (y1 = y2 /\ (m1 < m2 \/ (m1 = m2 /\ d1 < d2))).

Lemma days_in_month_range y m : 28 <= days_in_month y m <= 31.
Proof. unfold days_in_month. destruct (m =? 2); [destruct (is_leap y)|destruct ((m =? 4) || (m =? 6) || (m =? 9) || (m =? 11))]; lia. Qed.

Lemma ymd_ok_bounds d m y : ymd_ok d m y = true -> 1 <= m <= 12 /\ 1 <= d <= 31 /\ -32767 <= y <= 32767.
Proof.
  unfold ymd_ok. pose proof (days_in_month_range y m). lia.
Qed.

Lemma key_monotone d1 m1 y1 d2 m2 y2 :
  ymd_ok d1 m1 y1 = true -> ymd_ok d2 m2 y2 = true ->
  (date_key d1 m1 y1 < date_key d2 m2 y2 <-> lex_lt d1 m1 y1 d2 m2 y2).
Proof.
  intros H1 H2. apply ymd_ok_bounds in H1. apply ymd_ok_bounds in H2. unfold date_key, lex_lt. lia.
Qed.

Lemma key_injective d1 m1 y1 d2 m2 y2 :
  ymd_ok d1 m1 y1 = true -> ymd_ok d2 m2 y2 = true ->
  (date_key d1 m1 y1 = date_key d2 m2 y2 <-> (d1 = d2 /\ m1 = m2 /\ y1 = y2)).
Proof.
  intros H1 H2. apply ymd_ok_bounds in H1. apply ymd_ok_bounds in H2. unfold date_key. lia.
Qed.

Lemma setdate_iff d m y : setdate d m y = Some (d, m, y) <-> valid_gregorian d m y = true.
Proof.
  unfold setdate, valid_gregorian. split.
  - destruct (setdate_in_range d m y && ymd_ok d m y) eqn:E; [|discriminate].
    apply andb_true_iff in E. tauto.
  - intros H. assert (R : setdate_in_range d m y = true).
    { pose proof (ymd_ok_bounds _ _ _ H). unfold setdate_in_range. lia. }
    rewrite R, H. reflexivity.
Qed.

Lemma setdate_none d m y : valid_gregorian d m y = false -> setdate d m y = None.
Proof. unfold setdate, valid_gregorian. intros ->. rewrite andb_false_r. reflexivity. Qed.

(* literal path: components after the range guard; a result that passes ok() has the written components *)
Lemma literal_components d m y :
  let '(d', m', y') := date_literal_components d m y in
  ymd_ok d' m' y' = true -> (d', m', y') = (d, m, y) /\ valid_gregorian d m y = true.
Proof.
  unfold date_literal_components.
  destruct ((31 <? d) || (12 <? m) || (32767 <? y)) eqn:E.
  - cbn. discriminate.
  - intros H. split; [reflexivity|exact H].
Qed.

Lemma literal_valid d m y : valid_gregorian d m y = true -> date_literal_components d m y = (d, m, y).
Proof.
  intros H. pose proof (ymd_ok_bounds _ _ _ H). unfold date_literal_components.
  destruct ((31 <? d) || (12 <? m) || (32767 <? y)) eqn:E; [lia|reflexivity].
Qed.

(* days before 1 March of year y, counted from 1 March 0000 (146097 days in 400 years) *)
Definition gy (y : Z) : Z :=
  let era := y / 400 in let yoe := y - era * 400 in era * 146097 + yoe * 365 + yoe / 4 - yoe / 100.
(* days from 1 March to the first of month m (153 days in the five months from March) *)
Definition mdays (m : Z) : Z := (153 * (if 2 <? m then m - 3 else m + 9) + 2) / 5.

(* 719469 = 719468 days from 1 March 0000 to 1970-01-01, and one because d counts from 1 *)
Lemma dfc_form d m y : days_from_civil d m y = gy (if m <=? 2 then y - 1 else y) + mdays m + d - 719469.
Proof. unfold days_from_civil, gy, mdays. cbv zeta. ring. Qed.

Lemma gy_step y : gy y = gy (y - 1) + 365 + Z.b2z (is_leap y).
Proof. unfold gy, is_leap. cbv zeta. Z.div_mod_to_equations. lia. Qed.

Lemma days_next d m y : ymd_ok d m y = true ->
  let '(d', m', y') := next_day d m y in days_from_civil d' m' y' = days_from_civil d m y + 1.
Proof.
  intros H. pose proof (ymd_ok_bounds _ _ _ H) as [Bm _].
  apply andb_true_iff in H. destruct H as [_ Hdm]. apply Z.leb_le in Hdm.
  unfold next_day. destruct (d <? days_in_month y m) eqn:E1; [rewrite !dfc_form; lia|].
  assert (d = days_in_month y m) by lia. subst d.
  assert (Hm : In m [1; 2; 3; 4; 5; 6; 7; 8; 9; 10; 11; 12]) by (cbn [In]; lia). clear - Hm. cbn [In] in Hm.
  (* month by month, `mdays` and the lengths of the months being numbers; only February -> March and
     December -> January change the March-based year *)
  repeat destruct Hm as [<- | Hm]; try contradiction; cbn -[days_from_civil]; rewrite !dfc_form; cbn -[gy]; try lia.
  - rewrite (gy_step y). destruct (is_leap y); cbn [Z.b2z]; lia.
  - rewrite Z.add_simpl_r. lia.
Qed.

Lemma day_index_range d m y : 1 <= day_index d m y <= 7.
Proof. unfold day_index. pose proof (Z.mod_pos_bound (days_from_civil d m y + 4) 7 ltac:(lia)). lia. Qed.

Lemma day_index_step d m y : ymd_ok d m y = true ->
  let '(d', m', y') := next_day d m y in day_index d' m' y' = day_index d m y mod 7 + 1.
Proof.
  intros H. pose proof (days_next d m y H) as N. destruct (next_day d m y) as [[d' m'] y'].
  unfold day_index. rewrite N. Z.div_mod_to_equations. lia.
Qed.

Lemma day_index_anchor : day_index 1 1 2000 = 7 /\ day_index 29 9 2026 = 3.
Proof. vm_compute. split; reflexivity. Qed.
