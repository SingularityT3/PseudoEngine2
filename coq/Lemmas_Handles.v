(* Lemmas_Handles.v — OPENFILE and CLOSEFILE against the disk and the handle table (FileManager::createFile, closeFile). *)
From PE2 Require Import Files.
Local Open Scope Z_scope.

Lemma open_bad_name_fails name mode s : os_name_ok name = false -> create_file name mode s = (Ok false, s).
Proof. intros H. unfold create_file. rewrite H. reflexivity. Qed.

Lemma fs_get_set_same n v fs : fs_get n (fs_set n v fs) = Some v.
Proof.
  unfold fs_get. induction fs as [|[k x] r IH]; cbn; [rewrite str_eqb_refl; reflexivity|].
  destruct (str_eqb n k) eqn:E; cbn; rewrite ?E; [reflexivity|exact IH].
Qed.
Lemma fs_get_set_other n m v fs : str_eqb m n = false -> fs_get m (fs_set n v fs) = fs_get m fs.
Proof.
  intros H. unfold fs_get. induction fs as [|[k x] r IH]; cbn; [rewrite H; reflexivity|].
  destruct (str_eqb n k) eqn:E; cbn.
  - apply str_eqb_eq in E. subst k. rewrite H. reflexivity.
  - destruct (str_eqb m k); [reflexivity|exact IH].
Qed.

(* a usable name: what OPENFILE does, by mode and by what the disk holds under the name; [add] puts the new handle into the table *)
Lemma create_file_ok_name name mode s : os_name_ok name = true ->
  create_file name mode s =
  let add rest recs := set_files (s_files s ++ [mkOfile name mode rest recs 0 false]) s in
  match mode, fs_get name (s_fs s) with
  | FWrite, _ | FRandom, None => (Ok true, set_fs (fs_set name [] (s_fs s)) (add [] []))
  | FRead, None | FAppend, None => (Ok false, s)
  | FRead, Some content => (Ok true, add content [])
  | FAppend, Some _ => (Ok true, add [] [])
  | FRandom, Some content => (Ok true, add [] (load_records content))
  end.
Proof. intros H. unfold create_file. rewrite H. unfold bind, gets. cbn [negb]. destruct (fs_get name (s_fs s)), mode; reflexivity. Qed.

Lemma open_missing_for_read_or_append_fails name mode s :
  os_name_ok name = true -> fs_get name (s_fs s) = None -> (mode = FRead \/ mode = FAppend) ->
  create_file name mode s = (Ok false, s).
Proof. intros Hn Hf Hm. rewrite create_file_ok_name, Hf by exact Hn. destruct Hm as [->| ->]; reflexivity. Qed.

(* FOR WRITE: the file starts empty, every other file is untouched, and the handle is in the table *)
Lemma open_for_write name s : os_name_ok name = true ->
  exists s', create_file name FWrite s = (Ok true, s') /\ fs_get name (s_fs s') = Some [] /\
             (forall m, str_eqb m name = false -> fs_get m (s_fs s') = fs_get m (s_fs s)) /\
             s_files s' = s_files s ++ [mkOfile name FWrite [] [] 0 false].
Proof.
  intros Hn. rewrite create_file_ok_name by exact Hn. eexists. split; [reflexivity|].
  split; [apply fs_get_set_same|]. split; [intros m Hm; apply fs_get_set_other; exact Hm|reflexivity].
Qed.

(* FOR APPEND keeps the existing content *)
Lemma open_for_append name content s : os_name_ok name = true -> fs_get name (s_fs s) = Some content ->
  exists s', create_file name FAppend s = (Ok true, s') /\ s_fs s' = s_fs s.
Proof. intros Hn Hf. rewrite create_file_ok_name, Hf by exact Hn. eexists. split; reflexivity. Qed.

(* closing a modified random file writes all its records; any other handle writes nothing at close *)
Lemma close_random_flushes f s : of_mode f = FRandom -> of_modified f = true ->
  exists s', close_file_effect f s = (Ok Datatypes.tt, s') /\ fs_get (of_name f) (s_fs s') = Some (store_records (of_recs f)).
Proof. intros Hm Hd. unfold close_file_effect. rewrite Hm, Hd. unfold modify. eexists. split; [reflexivity|]. cbn. apply fs_get_set_same. Qed.

Lemma close_unmodified_keeps_disk f s : (of_mode f <> FRandom \/ of_modified f = false) -> close_file_effect f s = (Ok Datatypes.tt, s).
Proof. intros H. unfold close_file_effect. destruct (of_mode f); try reflexivity. destruct H as [H|H]; [contradiction|]. rewrite H. reflexivity. Qed.
