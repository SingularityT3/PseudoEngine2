(* Lemmas_Lexer.v — laws of the lexer model.  The central fact is [lex_step_steps], about a step of the main loop taken
   from a state and, at the same time, from the same place n lines further down: both fail alike, or both have read the
   same characters, at least one (they move to [advance_n k (advance s)]), and push at most one token, the same but for
   its line, well formed and, with the option, neither BREAK nor CONTINUE.  What is said of whole token lists, of
   progress, and of lines put in front of a text (Lemmas_LexShift.v, which adds the step taken on a line break) follows
   from it without looking into [lex_step] again.  Before it: CR LF against LF, comments and blanks (C10); after it: what --pedantic changes (C20). *)
From PE2 Require Import Lexer.
Local Open Scope Z_scope.

(* line endings: the lexer sees the text with every CR removed *)
Lemma lex_depends_on_cr_free_text ped a b : remove_cr a = remove_cr b -> lex ped a = lex ped b.
Proof. intros H. unfold lex. rewrite H. reflexivity. Qed.

Fixpoint to_crlf (s : str) : str :=
  match s with [] => [] | c :: r => if aeqb c ch_nl then ch_cr :: c :: to_crlf r else c :: to_crlf r end.

Lemma remove_cr_crlf s : remove_cr (to_crlf s) = remove_cr s.
Proof.
  induction s as [|c r IH]; [reflexivity|]. cbn [to_crlf]. destruct (aeqb c ch_nl) eqn:E.
  - apply Ascii.eqb_eq in E. subst c. cbn. f_equal. exact IH.
  - unfold remove_cr in *. cbn [filter]. destruct (negb (aeqb c ch_cr)); [f_equal|]; exact IH.
Qed.

Lemma crlf_same_tokens ped s : lex ped (to_crlf s) = lex ped s.
Proof. apply lex_depends_on_cr_free_text. apply remove_cr_crlf. Qed.

Lemma advance_eq s :
  advance s = mkLst (tl (rest s)) (curc s) (if aeqb (curc s) ch_nl then line s + 1 else line s)
                    (let c := if aeqb (curc s) ch_nl then 0 else col s in match rest s with _ :: _ :: _ => c + 1 | _ => c end)
                    (match rest s with x :: _ => Some x | [] => prevc s end).
Proof. unfold advance, curc. destruct (rest s) as [|x [|y r]]; reflexivity. Qed.

Lemma advance_cons c r x l k p : r <> [] ->
  advance (mkLst (c :: r) x l k p) =
  mkLst r c (if aeqb c ch_nl then l + 1 else l) ((if aeqb c ch_nl then 0 else k) + 1) (Some c).
Proof. intros Hr. destruct r; [contradiction|reflexivity]. Qed.

Lemma advance_advance_n k : forall s, advance (advance_n k s) = advance_n (S k) s.
Proof. induction k as [|k IH]; intros s; [reflexivity|apply IH]. Qed.
Lemma advance_n_add j k : forall s, advance_n j (advance_n k s) = advance_n (k + j) s.
Proof. induction k as [|k IH]; intros s; [reflexivity|apply IH]. Qed.

(* a comment: from the character after "//", skip_comment stops at the line break that ends the line,
   on the same line, having produced no token *)
Definition no_newline (t : str) : Prop := Forall (fun c => aeqb c ch_nl = false) t.

Lemma skip_comment_stops_at_newline : forall t fuel r st0 l k p,
  no_newline t -> (List.length t < fuel)%nat ->
  exists st1 k1 p1, skip_comment fuel (mkLst (t ++ ch_nl :: r) st0 l k p) = mkLst (ch_nl :: r) st1 l k1 p1.
Proof.
  induction t as [|c t IH]; intros fuel r st0 l k p Hn Hf; destruct fuel as [|f]; cbn [List.length] in Hf; try lia.
  - cbn [app skip_comment at_end rest curc]. rewrite Ascii.eqb_refl. cbn. eauto.
  - inversion Hn as [|? ? Hc Ht]; subst. cbn [app skip_comment]. unfold at_end, curc. cbn [rest]. rewrite Hc. cbn [negb andb].
    rewrite advance_cons, Hc by (destruct t; discriminate).
    apply IH; [exact Ht|lia].
Qed.

(* "//" produces no token: lex_step on '/' followed by '/' returns the tokens it was given *)
Lemma comment_adds_no_token ped r st0 l k p toks :
  exists s', lex_step ped (mkLst ("/"%char :: "/"%char :: r) st0 l k p) toks = LOk s' toks.
Proof. eexists. reflexivity. Qed.

(* blanks and tabs between tokens produce no token and keep the line *)
Lemma blank_adds_no_token ped c r st0 l k p toks :
  (c = ch_space \/ c = ch_tab) -> r <> [] ->
  lex_step ped (mkLst (c :: r) st0 l k p) toks = LOk (mkLst r c l (k + 1) (Some c)) toks.
Proof. intros [->| ->] Hr; (destruct r; [contradiction|reflexivity]). Qed.

(* '(' directly after an I/O keyword is the one deliberate exception; after a blank or a TAB it is an ordinary token *)
Lemma paren_after_blank_accepted ped r st0 l k toks c :
  (c = ch_space \/ c = ch_tab) ->
  exists s', lex_step ped (mkLst ("("%char :: r) st0 l k (Some c)) toks = LOk s' (mkTok TLPAREN l k [] :: toks).
Proof. intros [->| ->]; destruct toks; eexists; reflexivity. Qed.

(* token well-formedness needed by the parser's literal constructors (C01): a CHAR token holds exactly one
   character, INTEGER/REAL tokens are non-empty and start with a digit *)
Definition tok_wf (t : token) : Prop :=
  match tt t with
  | TCHAR => exists ch, tval t = [ch]
  | TINTEGER | TREAL => exists ch r, tval t = ch :: r /\ is_digit ch = true
  | _ => True
  end.

Definition anytext (ty : ttype) : bool := match ty with TCHAR | TINTEGER | TREAL => false | _ => true end.
Definition is_bc (ty : ttype) : bool := match ty with TBREAK | TCONTINUE => true | _ => false end.

Lemma tok_wf_anytext t : anytext (tt t) = true -> tok_wf t.
Proof. unfold tok_wf. destruct (tt t); intros H; try exact I; discriminate H. Qed.

Lemma is_bc_false ty : is_bc ty = false -> ty <> TBREAK /\ ty <> TCONTINUE.
Proof. intros H. split; intros E; rewrite E in H; discriminate H. Qed.

Lemma simple_tok_kind c ty : simple_tok c = Some ty -> anytext ty = true /\ is_bc ty = false.
Proof.
  unfold simple_tok. repeat match goal with |- context [if ?b then _ else _] => destruct b end;
    try discriminate; intros [= <-]; split; reflexivity.
Qed.

Lemma simple_tok_nl : simple_tok ch_nl = Some TLINE_END.
Proof. reflexivity. Qed.

Lemma lookup_kw_forallb (P : ttype -> bool) w ty : forall l,
  forallb (fun e => P (snd e)) l = true -> lookup_kw w l = Some ty -> P ty = true.
Proof.
  induction l as [|[k t0] l IH]; cbn [forallb lookup_kw snd]; [discriminate|].
  intros H. apply andb_prop in H as [H0 H1]. destruct (str_eqb w (str_of_string k)); [intros [= <-]; exact H0|exact (IH H1)].
Qed.

Definition word_tok (w : str) : ttype * str :=
  match lookup_kw w keywords with
  | Some ty => (ty, [])
  | None => (if is_data_type_word w then TDATA_TYPE else TIDENTIFIER, w)
  end.

Lemma word_tok_anytext w : anytext (fst (word_tok w)) = true.
Proof.
  unfold word_tok. destruct (lookup_kw w keywords) as [ty|] eqn:E.
  - exact (lookup_kw_forallb anytext w ty keywords eq_refl E).
  - destruct (is_data_type_word w); reflexivity.
Qed.

(* makeWord: BREAK and CONTINUE are the only words the option looks at.  The one place where the kinds are gone
   through one by one. *)
Lemma make_word_eq ped s toks :
  make_word ped s toks =
  let (s1, w) := word_loop (S (List.length (rest s))) s [] in
  let (ty, v) := word_tok w in
  if is_bc ty && ped then LErr (mkLexErr LexPedantic (line s1) (col s))
  else LOk s1 (mkTok ty (line s1) (col s) v :: toks).
Proof.
  unfold make_word, word_tok. destruct (word_loop (S (List.length (rest s))) s []) as [s1 w].
  destruct (lookup_kw w keywords) as [ty|]; [|destruct (is_data_type_word w); reflexivity].
  destruct ty; try reflexivity; destruct ped; reflexivity.
Qed.

(* What the lexer does depends on the text alone; line and column are only counted and copied into tokens and errors.
   So every loop and every sub-lexer is followed once, from a state and from [down n] of it together; what one run
   alone does is the case n := 0. *)
Definition down (n : Z) (s : lst) : lst := mkLst (rest s) (stale s) (line s + n) (col s) (prevc s).

Lemma down_rest n s : rest (down n s) = rest s.
Proof. reflexivity. Qed.
Lemma down_line n s : line (down n s) = line s + n.
Proof. reflexivity. Qed.
Lemma down_col n s : col (down n s) = col s.
Proof. reflexivity. Qed.
Lemma down_curc n s : curc (down n s) = curc s.
Proof. reflexivity. Qed.
Lemma down_at_end n s : at_end (down n s) = at_end s.
Proof. reflexivity. Qed.
Lemma down_advance n s : advance (down n s) = down n (advance s).
Proof.
  unfold advance, down, curc. cbn [rest stale line col prevc].
  destruct (rest s) as [|x [|y r]]; cbn [rest stale line col prevc]; (destruct (aeqb _ ch_nl); [rewrite Z.add_shuffle0|]; reflexivity).
Qed.
Lemma down_advance_n n k : forall s, advance_n k (down n s) = down n (advance_n k s).
Proof. induction k as [|k IH]; intros s; cbn [advance_n]; [reflexivity|]. rewrite down_advance. apply IH. Qed.
Ltac down_out := rewrite ?down_advance_n, ?down_advance, ?down_curc, ?down_at_end, ?down_rest, ?down_line, ?down_col.

(* where a step starts, the second run need not have read the same before: once a character is read, it has *)
Record rel (n : Z) (s s' : lst) : Prop := mkRel { r_rest : rest s' = rest s; r_line : line s' = line s + n; r_col : col s' = col s }.
Arguments r_rest {n s s'}.
Arguments r_line {n s s'}.
Arguments r_col {n s s'}.

Lemma rel_down n s : rel n s (down n s).
Proof. split; reflexivity. Qed.
Lemma rel_at_end [n s s'] : rel n s s' -> at_end s' = at_end s.
Proof. intros H. unfold at_end. rewrite (r_rest H). reflexivity. Qed.
Lemma rel_curc [n s s'] : rel n s s' -> at_end s = false -> curc s' = curc s.
Proof. intros H. unfold at_end, curc. rewrite (r_rest H). destruct (rest s); [discriminate|reflexivity]. Qed.
Lemma rel_advance [n s s'] : rel n s s' -> at_end s = false -> advance s' = down n (advance s).
Proof.
  intros [H1 H2 H3]. unfold at_end, advance, down, curc. rewrite H1, H2, H3.
  destruct (rest s) as [|x [|y r]]; [discriminate| |]; intros _; cbn [rest stale line col prevc];
    (destruct (aeqb x ch_nl); [rewrite Z.add_shuffle0|]; reflexivity).
Qed.

Lemma word_loop_advance n fuel : forall s acc, exists k w,
  word_loop fuel s acc = (advance_n k s, w) /\ word_loop fuel (down n s) acc = (down n (advance_n k s), w).
Proof.
  induction fuel as [|f IH]; intros s acc; cbn [word_loop]; [exists O, (rev acc); split; reflexivity|].
  rewrite down_at_end, down_curc, down_advance. destruct (IH (advance s) (curc s :: acc)) as (k & w & -> & ->).
  destruct (at_end s); [exists O, (rev acc); split; reflexivity|].
  destruct (is_alnum (curc s) || aeqb (curc s) "_"); [exists (S k), w|exists O, (rev acc)]; split; reflexivity.
Qed.

(* the text of a number extends what was accumulated, so that it begins with the digit the number began with *)
Lemma number_loop_advance n fuel : forall s d acc, exists k d' more,
  number_loop fuel s d acc = (advance_n k s, d', rev_append acc more) /\
  number_loop fuel (down n s) d acc = (down n (advance_n k s), d', rev_append acc more).
Proof.
  induction fuel as [|f IH]; intros s d acc; cbn [number_loop].
  all: assert (Stop : exists k d' more, (s, d, rev acc) = (advance_n k s, d', rev_append acc more) /\
                        (down n s, d, rev acc) = (down n (advance_n k s), d', rev_append acc more))
         by (exists O, d, []; rewrite rev_alt; split; reflexivity).
  { exact Stop. }
  rewrite down_at_end, down_curc, down_advance.
  destruct (IH (advance s) true (curc s :: acc)) as (k1 & d1 & m1 & E1 & E1').
  destruct (IH (advance s) d (curc s :: acc)) as (k2 & d2 & m2 & E2 & E2').
  destruct (at_end s); [exact Stop|].
  destruct (aeqb (curc s) "." && negb d); [exists (S k1), d1, (curc s :: m1); split; assumption|].
  destruct (is_digit (curc s)); [exists (S k2), d2, (curc s :: m2); split; assumption|exact Stop].
Qed.

Lemma digits_loop_advance n fuel : forall s acc, exists k y,
  digits_loop fuel s acc = (advance_n k s, y) /\ digits_loop fuel (down n s) acc = (down n (advance_n k s), y).
Proof.
  induction fuel as [|f IH]; intros s acc; cbn [digits_loop]; [exists O, acc; split; reflexivity|].
  rewrite down_at_end, down_curc, down_advance. destruct (IH (advance s) (curc s :: acc)) as (k & y & -> & ->).
  destruct (negb (at_end s) && is_digit (curc s)); [exists (S k), y|exists O, acc]; split; reflexivity.
Qed.

Lemma skip_comment_advance n fuel : forall s, exists k,
  skip_comment fuel s = advance_n k s /\ skip_comment fuel (down n s) = down n (advance_n k s).
Proof.
  induction fuel as [|f IH]; intros s; cbn [skip_comment]; [exists O; split; reflexivity|].
  rewrite down_at_end, down_curc, down_advance. destruct (IH (advance s)) as (k & -> & ->).
  destruct (negb (at_end s) && negb (aeqb (curc s) ch_nl)); [exists (S k)|exists O]; split; reflexivity.
Qed.

Lemma string_loop_advance n fuel : forall s acc,
  (exists k r, string_loop fuel s acc = inl (advance_n k s, r) /\ string_loop fuel (down n s) acc = inl (down n (advance_n k s), r)) \/
  (exists l c, string_loop fuel s acc = inr (mkLexErr LexSyntax l c) /\ string_loop fuel (down n s) acc = inr (mkLexErr LexSyntax (l + n) c)).
Proof.
  induction fuel as [|f IH]; intros s acc; cbn [string_loop]; [left; exists O, acc; split; reflexivity|].
  down_out. destruct (aeqb (curc s) ch_dquote || at_end s); [left; exists O, acc; split; reflexivity|].
  destruct (aeqb (curc s) ch_bslash).
  - destruct (esc_seq (curc (advance s))) as [c|]; [|right; exists (line (advance s)), (col (advance s)); split; reflexivity].
    destruct (IH (advance (advance s)) (c :: acc)) as [(k & r & E & E')|(l & c0 & E & E')];
      [left; exists (S (S k)), r|right; exists l, c0]; split; assumption.
  - destruct (IH (advance s) (curc s :: acc)) as [(k & r & E & E')|(l & c0 & E & E')];
      [left; exists (S k), r|right; exists l, c0]; split; assumption.
Qed.

Inductive steps (n : Z) (ped : bool) (s : lst) (t t' : list token) : lres -> lres -> Prop :=
  | steps_err k l c : steps n ped s t t' (LErr (mkLexErr k l c)) (LErr (mkLexErr k (l + n) c))
  | steps_skip k : steps n ped s t t' (LOk (advance_n k (advance s)) t) (LOk (down n (advance_n k (advance s))) t')
  | steps_push k ty l c v : tok_wf (mkTok ty l c v) -> is_bc ty && ped = false ->
      steps n ped s t t' (LOk (advance_n k (advance s)) (mkTok ty l c v :: t))
                         (LOk (down n (advance_n k (advance s))) (mkTok ty (l + n) c v :: t')).
Arguments steps_skip {n ped s t t'} k.
Arguments steps_push {n ped s t t'} k.

Lemma steps_kind k n ped s t t' ty l c v : anytext ty = true -> is_bc ty && ped = false ->
  steps n ped s t t' (LOk (advance_n k (advance s)) (mkTok ty l c v :: t))
                     (LOk (down n (advance_n k (advance s))) (mkTok ty (l + n) c v :: t')).
Proof. intros A B. apply steps_push; [apply tok_wf_anytext; exact A|exact B]. Qed.

Lemma make_word_steps n ped s s' t t' : rel n s s' -> at_end s = false -> is_alpha (curc s) = true ->
  steps n ped s t t' (make_word ped s t) (make_word ped s' t').
Proof.
  intros H He Ha. rewrite !make_word_eq, (r_rest H), (r_col H). cbn [word_loop].
  rewrite (rel_at_end H), (rel_curc H He), (rel_advance H He), He. unfold is_alnum. rewrite Ha. cbn [orb].
  destruct (word_loop_advance n (List.length (rest s)) (advance s) [curc s]) as (k & w & -> & ->).
  pose proof (word_tok_anytext w) as A. destruct (word_tok w) as [ty v].
  destruct (is_bc ty && ped) eqn:B; [apply steps_err|apply (steps_kind k); assumption].
Qed.

Lemma make_number_steps n ped s s' t t' : rel n s s' -> at_end s = false -> is_digit (curc s) = true ->
  steps n ped s t t' (make_number s t) (make_number s' t').
Proof.
  intros H He Hd. unfold make_number, get_next_char. rewrite (r_rest H), (r_col H). cbn [number_loop].
  rewrite (rel_at_end H), (rel_curc H He), (rel_advance H He), He, Hd.
  destruct (aeqb (curc s) ".") eqn:E; [apply Ascii.eqb_eq in E; rewrite E in Hd; discriminate Hd|]. cbn [andb].
  destruct (number_loop_advance n (List.length (rest s)) (advance s) false [curc s]) as (k1 & dec & more & -> & ->).
  cbn [rev_append]. down_out.
  assert (Num : forall l c, steps n ped s t t'
            (LOk (advance_n k1 (advance s)) (mkTok (if dec then TREAL else TINTEGER) l c (curc s :: more) :: t))
            (LOk (down n (advance_n k1 (advance s))) (mkTok (if dec then TREAL else TINTEGER) (l + n) c (curc s :: more) :: t'))).
  { intros l c. apply steps_push; [|destruct dec; reflexivity]. unfold tok_wf. cbn [tt tval]. destruct dec; eauto. }
  destruct (negb (aeqb (curc (advance_n k1 (advance s))) "/") || dec); [apply Num|].
  match goal with |- context [if ?b then _ else _] => destruct b end; [apply Num|].
  match goal with |- context [digits_loop ?f ?x []] => destruct (digits_loop_advance n f x []) as (k3 & y & -> & ->) end.
  down_out. rewrite !advance_n_add. apply steps_kind; reflexivity.
Qed.

Lemma make_char_steps n ped s s' t t' : rel n s s' -> at_end s = false -> steps n ped s t t' (make_char s t) (make_char s' t').
Proof.
  intros H He.
  (* the closing quote is two characters after the state [advance_n k (advance s)] *)
  assert (Tok : forall k l c v, steps n ped s t t'
            (LOk (advance (advance (advance_n k (advance s)))) (mkTok TCHAR l c [v] :: t))
            (LOk (down n (advance (advance (advance_n k (advance s))))) (mkTok TCHAR (l + n) c [v] :: t'))).
  { intros k l c v. rewrite !advance_advance_n. apply steps_push; [exists v; reflexivity|reflexivity]. }
  unfold make_char. cbv zeta. rewrite (r_rest H), (r_line H), (r_col H), (rel_advance H He). down_out.
  destruct (Nat.ltb (List.length (rest s)) 3); [apply steps_err|].
  destruct (aeqb (curc (advance s)) ch_bslash).
  - destruct (esc_seq (curc (advance (advance s)))); [|apply steps_err]. down_out.
    destruct (rest (advance (advance s))) as [|x [|q r]]; try apply steps_err.
    destruct (aeqb q ch_quote); [apply (Tok 1%nat)|apply steps_err].
  - destruct (aeqb (curc (advance s)) ch_quote); [apply steps_err|]. down_out.
    destruct (rest (advance s)) as [|x [|q r]]; try apply steps_err.
    destruct (aeqb q ch_quote); [apply (Tok O)|apply steps_err].
Qed.

Lemma make_string_steps n ped s s' t t' : rel n s s' -> at_end s = false -> steps n ped s t t' (make_string s t) (make_string s' t').
Proof.
  intros H He. unfold make_string. cbv zeta. rewrite (r_col H), (rel_advance H He), down_rest.
  destruct (string_loop_advance n (S (List.length (rest (advance s)))) (advance s) [])
    as [(k & r & -> & ->)|(l & c & -> & ->)]; [|apply steps_err].
  down_out. destruct (at_end _ || negb (aeqb _ ch_dquote)); [apply steps_err|].
  rewrite advance_advance_n. apply (steps_kind (S k)); reflexivity.
Qed.

(* '(' directly after an I/O keyword is refused: the one place where a step looks at what came before *)
Definition blocked (s : lst) (t : list token) : bool :=
  match prevc s, t with
  | Some p, x :: _ => negb (aeqb p ch_space) && negb (aeqb p ch_tab) && io_keyword (tt x)
  | _, _ => false
  end.

Lemma lex_step_steps n ped s s' t t' : rel n s s' -> at_end s = false -> blocked s' t' = blocked s t ->
  steps n ped s t t' (lex_step ped s t) (lex_step ped s' t').
Proof.
  intros H He Hb. unfold lex_step. cbv zeta. fold (blocked s t) (blocked s' t').
  rewrite Hb, (rel_curc H He), (r_line H), (r_col H), (rel_advance H He). down_out.
  destruct (simple_tok (curc s)) as [ty|] eqn:Es.
  { destruct (simple_tok_kind _ _ Es) as [A B]. apply (steps_kind O); [exact A|rewrite B; reflexivity]. }
  destruct (aeqb (curc s) "/").
  { destruct (at_end (advance s) || negb (aeqb (curc (advance s)) "/")); [apply (steps_kind O); reflexivity|].
    destruct (skip_comment_advance n (S (List.length (rest (advance s)))) (advance s)) as (k & -> & ->). apply (steps_skip k). }
  destruct (aeqb (curc s) "(").
  { destruct (blocked s t); [apply steps_err|apply (steps_kind O); reflexivity]. }
  destruct (aeqb (curc s) "=").
  { destruct (at_end (advance s) || negb (aeqb (curc (advance s)) "=")); [apply (steps_kind O); reflexivity|apply steps_err]. }
  destruct (aeqb (curc s) ch_quote); [apply make_char_steps; assumption|].
  destruct (aeqb (curc s) ch_dquote); [apply make_string_steps; assumption|].
  destruct (aeqb (curc s) ">").
  { destruct (at_end (advance s) || negb (aeqb (curc (advance s)) "=")); [apply (steps_kind O)|apply (steps_kind 1%nat)]; reflexivity. }
  destruct (aeqb (curc s) "<").
  { destruct (at_end (advance s) || _); [apply (steps_kind O); reflexivity|].
    destruct (aeqb (curc (advance s)) "="); [|destruct (aeqb (curc (advance s)) ">")]; apply (steps_kind 1%nat); reflexivity. }
  destruct (is_alpha (curc s)) eqn:Ea; [apply make_word_steps; assumption|].
  destruct (is_digit (curc s)) eqn:Ed; [apply make_number_steps; assumption|].
  destruct (aeqb (curc s) ch_space || aeqb (curc s) ch_tab); [apply (steps_skip O)|apply steps_err].
Qed.

Lemma lex_step_inv ped s toks s' toks' : at_end s = false -> lex_step ped s toks = LOk s' toks' ->
  (exists k, s' = advance_n k (advance s)) /\
  (toks' = toks \/ exists t, toks' = t :: toks /\ tok_wf t /\ is_bc (tt t) && ped = false).
Proof.
  intros He H. pose proof (lex_step_steps 0 ped s (down 0 s) toks toks (rel_down 0 s) He eq_refl) as K.
  rewrite H in K. inversion K; subst; eauto 7.
Qed.

Lemma lex_inv ped input toks : lex ped input = inl toks ->
  exists s ts, lex_loop (S (List.length (remove_cr input))) ped (init_lst (remove_cr input)) [] = LOk s ts /\
               toks = rev (mkTok TEXPRESSION_END (line s) (col s) [] :: ts).
Proof. unfold lex. destruct (lex_loop _ ped _ []) as [s ts|e]; [|discriminate]. intros [= <-]. eauto. Qed.

Lemma lex_loop_invariant (P : list token -> Prop) ped :
  (forall s toks s' toks', P toks -> at_end s = false -> lex_step ped s toks = LOk s' toks' -> P toks') ->
  forall fuel s toks s' toks', P toks -> lex_loop fuel ped s toks = LOk s' toks' -> P toks'.
Proof.
  intros Hstep. induction fuel as [|f IH]; intros s toks s' toks' HP H; cbn in H.
  - inversion H; subst; exact HP.
  - destruct (at_end s) eqn:E; [inversion H; subst; exact HP|].
    destruct (lex_step ped s toks) as [s1 toks1|e] eqn:E1; [|discriminate].
    eapply IH; [|exact H]. eapply Hstep; eauto.
Qed.

Lemma lex_tokens ped input toks : lex ped input = inl toks -> Forall (fun t => tok_wf t /\ is_bc (tt t) && ped = false) toks.
Proof.
  intros H. destruct (lex_inv _ _ _ H) as (s & ts & E & ->). apply Forall_rev.
  constructor; [split; [exact I|reflexivity]|]. eapply (lex_loop_invariant (Forall _) ped); [|constructor|exact E].
  intros s0 t0 s1 t1 HP He Hs. destruct (lex_step_inv _ _ _ _ _ He Hs) as [_ [->|(t & -> & Ht)]]; [exact HP|constructor; assumption].
Qed.

Lemma lex_tokens_wf ped input toks : lex ped input = inl toks -> Forall tok_wf toks.
Proof. intros H. eapply Forall_impl; [|exact (lex_tokens _ _ _ H)]. intros t [W _]. exact W. Qed.

(* with the option, an accepted text contains no BREAK and no CONTINUE token: they are rejected, not dropped *)
Lemma lex_ped_no_break_continue input toks :
  lex true input = inl toks -> Forall (fun t => tt t <> TBREAK /\ tt t <> TCONTINUE) toks.
Proof.
  intros H. eapply Forall_impl; [|exact (lex_tokens _ _ _ H)].
  intros t [_ B]. rewrite andb_true_r in B. exact (is_bc_false _ B).
Qed.

Definition only_rejects (x y : lres) : Prop := x = y \/ exists e, x = LErr e /\ le_kind e = LexPedantic.

Lemma make_word_rel s toks : only_rejects (make_word true s toks) (make_word false s toks).
Proof.
  rewrite !make_word_eq. destruct (word_loop _ s []) as [s1 w]. destruct (word_tok w) as [ty v].
  rewrite andb_false_r. destruct (is_bc ty); [right; eexists; split; reflexivity|left; reflexivity].
Qed.

(* only the word branch looks at the option *)
Lemma lex_step_rel s toks : only_rejects (lex_step true s toks) (lex_step false s toks).
Proof.
  unfold lex_step. destruct (simple_tok (curc s)); [left; reflexivity|].
  repeat match goal with |- context [if ?b then _ else _] => destruct b end; try (left; reflexivity). apply make_word_rel.
Qed.

Lemma lex_loop_rel : forall fuel s toks, only_rejects (lex_loop fuel true s toks) (lex_loop fuel false s toks).
Proof.
  induction fuel as [|f IH]; intros s toks; cbn; [left; reflexivity|].
  destruct (at_end s); [left; reflexivity|].
  destruct (lex_step_rel s toks) as [E|[e [E Hk]]].
  - rewrite E. destruct (lex_step false s toks); [apply IH|left; reflexivity].
  - rewrite E. right. eauto.
Qed.

Lemma lex_rel input : lex true input = lex false input \/ exists e, lex true input = inr e /\ le_kind e = LexPedantic.
Proof.
  unfold lex. destruct (lex_loop_rel (S (List.length (remove_cr input))) (init_lst (remove_cr input)) []) as [E|[e [E Hk]]].
  - rewrite E. left. reflexivity.
  - rewrite E. right. eauto.
Qed.

Lemma lex_step_ped s toks s' toks' : lex_step true s toks = LOk s' toks' -> lex_step false s toks = LOk s' toks'.
Proof. intros H. destruct (lex_step_rel s toks) as [E|[e [E _]]]; rewrite E in H; [exact H|discriminate]. Qed.

Lemma lex_ped_only_rejects input toks : lex true input = inl toks -> lex false input = inl toks.
Proof. intros H. destruct (lex_rel input) as [E|[e [E _]]]; rewrite E in H; [exact H|discriminate]. Qed.
