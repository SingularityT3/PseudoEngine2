(* Lemmas_ArrStates.v -- what an indexed name denotes: a[i1,...,in] resolves to exactly the element cell the linearisation of the
   index tuple selects; a wrong number of indices, an index that is not an INTEGER, an index outside its bounds, and indexing
   something that is not an array are runtime errors that leave the whole state as it was.  For every state and context; the index
   expressions are any that evaluate without touching the state. *)
From PE2 Require Import Eval Lemmas_Store.
Local Open Scope N_scope.

Section Indices.
Variable ev : node -> M result.
Variables (c : N) (s : st).

Definition evaluates (e : node) (r : result) : Prop := ev e s = (Ok r, s).
(* an INTEGER result holds an integer (results are well tagged: C05_results_have_their_type) *)
Definition int_tagged (r : result) : Prop := dk (r_type r) = KInt -> exists i, r_val r = Some (PInt i).
Definition index_ok (d : dim) (r : result) (i : Z) : Prop := dk (r_type r) = KInt /\ r_val r = Some (PInt i) /\ valid_index d i = true.

Lemma eval_indices_ok : forall es ds rs is, Forall2 evaluates es rs -> List.length ds = List.length es ->
  Forall2 (fun dr i => index_ok (fst dr) (snd dr) i) (combine ds rs) is ->
  eval_indices ev c es ds s = (Ok is, s).
Proof.
  induction es as [|e er IH]; intros ds rs is HE HL HO.
  - inversion HE; subst. destruct ds; [|discriminate HL]. cbn in HO. inversion HO; subst. reflexivity.
  - inversion HE as [|? r ? rr He Hr]; subst. destruct ds as [|d dr]; [discriminate HL|]. cbn [combine] in HO.
    inversion HO as [|? i ? ir [Hk [Hv Hb]] Hrest]; subst. cbn [fst snd] in *.
    apply dk_eqb_eq in Hk. cbn [eval_indices]. rewrite (bind_ok He), Hk. unfold as_int. rewrite Hv. cbn [negb]. rewrite bind_ret, Hb.
    cbn [negb]. rewrite (bind_ok (IH dr rr ir Hr ltac:(cbn in HL; congruence) Hrest)). reflexivity.
Qed.

Lemma eval_indices_bad : forall es ds rs, Forall2 evaluates es rs -> List.length ds = List.length es -> Forall int_tagged rs ->
  ~ (exists is, Forall2 (fun dr i => index_ok (fst dr) (snd dr) i) (combine ds rs) is) ->
  exists f, eval_indices ev c es ds s = (Fail f, s).
Proof.
  induction es as [|e er IH]; intros ds rs HE HL HT HN.
  - inversion HE; subst. destruct ds; [|discriminate HL]. exfalso. apply HN. exists []. constructor.
  - inversion HE as [|? r ? rr He Hr]; subst. destruct ds as [|d dr]; [discriminate HL|]. inversion HT as [|? ? Ht Htr]; subst.
    cbn [eval_indices]. rewrite (bind_ok He).
    destruct (dk_eqb (dk (r_type r)) KInt) eqn:Ek; [|apply rt_error_pure]. apply dk_eqb_eq in Ek.
    destruct (Ht Ek) as [i Hv]. unfold as_int. rewrite Hv. cbn [negb]. rewrite bind_ret.
    destruct (valid_index d i) eqn:Hb; [|apply rt_error_pure].
    destruct (IH dr rr Hr ltac:(cbn in HL; congruence) Htr) as [f Hf].
    { intros [is His]. apply HN. exists (i :: is). cbn [combine]. constructor; [repeat split; assumption|exact His]. }
    cbn [negb]. rewrite (bind_fail Hf). eauto.
Qed.
End Indices.

Section Resolve.
Variables (ped repl : bool) (lim : limits) (fuel : nat).
Notation rs := (ev_resolve (evs_at ped repl lim (S fuel))).
Notation evl c := (fun x => ev_eval (evs_at ped repl lim fuel) x c).

(* in bounds: exactly the element the linearisation selects *)
Theorem element_resolves_to_the_selected_cell t r' idx c s aid a rsl is eid :
  ev_resolve (evs_at ped repl lim fuel) r' c s = (Ok (HArr aid), s) -> nm_get aid (s_arrs s) = Some a ->
  List.length idx = List.length (a_dims a) -> Forall2 (evaluates (evl c) s) idx rsl ->
  Forall2 (fun dr i => index_ok (fst dr) (snd dr) i) (combine (a_dims a) rsl) is ->
  nth_z (a_elems a) (linear is (a_dims a)) = Some eid ->
  rs (RIndex t r' idx) c s = (Ok (HVar eid), s).
Proof.
  intros Hr Ea HL HE HO Hn. rewrite resolve_S. cbn [resolve_body]. rewrite (bind_ok Hr), (bind_ok (get_arr_at Ea)), HL, Nat.eqb_refl.
  cbn [negb]. rewrite (bind_ok (eval_indices_ok (evl c) c s idx (a_dims a) rsl is HE (eq_sym HL) HO)), Hn. reflexivity.
Qed.

(* an index that is not an INTEGER or lies outside its bounds: a runtime error, nothing read or written *)
Theorem bad_index_is_an_error t r' idx c s aid a rsl :
  ev_resolve (evs_at ped repl lim fuel) r' c s = (Ok (HArr aid), s) -> nm_get aid (s_arrs s) = Some a ->
  List.length idx = List.length (a_dims a) -> Forall2 (evaluates (evl c) s) idx rsl -> Forall int_tagged rsl ->
  ~ (exists is, Forall2 (fun dr i => index_ok (fst dr) (snd dr) i) (combine (a_dims a) rsl) is) ->
  exists f, rs (RIndex t r' idx) c s = (Fail f, s).
Proof.
  intros Hr Ea HL HE HT HN. rewrite resolve_S. cbn [resolve_body]. rewrite (bind_ok Hr), (bind_ok (get_arr_at Ea)), HL, Nat.eqb_refl.
  destruct (eval_indices_bad (evl c) c s idx (a_dims a) rsl HE (eq_sym HL) HT HN) as [f Hf]. cbn [negb]. rewrite (bind_fail Hf). eauto.
Qed.

Theorem wrong_number_of_indices_is_an_error t r' idx c s aid a :
  ev_resolve (evs_at ped repl lim fuel) r' c s = (Ok (HArr aid), s) -> nm_get aid (s_arrs s) = Some a ->
  List.length idx <> List.length (a_dims a) -> exists f, rs (RIndex t r' idx) c s = (Fail f, s).
Proof.
  intros Hr Ea HL%Nat.eqb_neq. rewrite resolve_S. cbn [resolve_body]. rewrite (bind_ok Hr), (bind_ok (get_arr_at Ea)), HL. apply rt_error_pure.
Qed.

Theorem indexing_a_variable_is_an_error t r' idx c s id :
  ev_resolve (evs_at ped repl lim fuel) r' c s = (Ok (HVar id), s) -> exists f, rs (RIndex t r' idx) c s = (Fail f, s).
Proof.
  intros Hr. rewrite resolve_S. cbn [resolve_body]. rewrite (bind_ok Hr). apply rt_error_pure.
Qed.
End Resolve.
