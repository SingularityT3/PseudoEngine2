(* Lemmas_Codec.v — the string part of the record codec: line breaks are marked with '#' on the way
   out and the marks are removed on the way in, for every byte string. *)
From PE2 Require Import Codec.
Local Open Scope Z_scope.

(* read_marked with the state it carries: [first] = no character consumed yet, [prev] = last character *)
Lemma read_marked_roundtrip : forall s first prev rest0 acc,
  (first = true \/ aeqb prev ch_nl = false) ->
  read_marked (List.length (mark_newlines s)) first prev (mark_newlines s ++ rest0) acc = Some (rev acc ++ s, rest0).
Proof.
  induction s as [|c r IH]; intros first prev rest0 acc Hst.
  - cbn. rewrite app_nil_r. reflexivity.
  - (* c itself is never taken for a mark: it is the first character, or the one before it is no line break *)
    assert (H1 : (negb first && aeqb c ch_hash && aeqb prev ch_nl) = false).
    { destruct Hst as [->| ->]; [reflexivity|apply andb_false_r]. }
    cbn [mark_newlines]. destruct (aeqb c ch_nl) eqn:E; cbn [List.length app]; cbn [read_marked]; rewrite H1.
    + (* c = '\n' was written as '\n' '#': the '#' is dropped *)
      cbn [read_marked]. rewrite E, Ascii.eqb_refl. cbn [negb andb].
      rewrite (IH false ch_hash) by (right; reflexivity). cbn [rev]. rewrite <- app_assoc. reflexivity.
    + rewrite (IH false c) by (right; exact E). cbn [rev]. rewrite <- app_assoc. reflexivity.
Qed.

Lemma string_payload_roundtrip s rest0 :
  read_marked (List.length (mark_newlines s)) true ch_nul (mark_newlines s ++ rest0) [] = Some (s, rest0).
Proof. apply (read_marked_roundtrip s true ch_nul rest0 []). left. reflexivity. Qed.

(* the marked form is line safe: every line break in it is followed by '#' *)
Fixpoint line_safe (s : str) : bool :=
  match s with
  | [] => true
  | c :: r => if aeqb c ch_nl then match r with h :: _ => aeqb h ch_hash && line_safe r | [] => false end else line_safe r
  end.
Lemma mark_newlines_line_safe s : line_safe (mark_newlines s) = true.
Proof.
  induction s as [|c r IH]; [reflexivity|]. cbn [mark_newlines]. destruct (aeqb c ch_nl) eqn:E; cbn [line_safe]; rewrite E.
  - rewrite Ascii.eqb_refl. exact IH.
  - exact IH.
Qed.

(* a CHAR field: any of the 256 codes; the mark after a line break is consumed with it *)
Lemma load_char old c r :
  load (VChar old) (str_of_string "CHAR " ++ c :: r) =
  (VChar c, (if aeqb c ch_nl then match r with h :: t => if aeqb h ch_hash then t else r | [] => r end else r), true).
Proof. reflexivity. Qed.

Lemma char_field_exact c rest0 old :
  load (VChar old) (str_of_string "CHAR " ++ [c] ++ (if aeqb c ch_nl then [ch_hash] else []) ++ rest0) = (VChar c, rest0, true).
Proof. destruct (aeqb c ch_nl) eqn:E; cbn [app]; rewrite load_char, E; reflexivity. Qed.

(* an INTEGER variable refuses a record whose only word is not the tag INTEGER *)
Lemma tag_mismatch_rejected_int old w r :
  rd_word r = Some (w, []) -> str_eqb w (str_of_string "INTEGER") = false ->
  exists v s', load (VInt old) r = (v, s', false).
Proof.
  intros H Hw. unfold load, expect_tag. rewrite H, Hw. eauto.
Qed.
