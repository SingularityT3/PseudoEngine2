(* Properties_C12.v — the REPL survives failing entries.
   PARTIAL: proved that an entry ending in a diagnostic leaves the loop running on the state the entry
   left, and that an entry rejected by the lexer leaves every component of the state (variables, types,
   procedures, handles, disk, unread input) untouched.  "A failing simple entry has no effect" for runtime
   errors rests on the per-statement order of checks in Eval.v (all checks before the first write), of
   which the assignment case is proved in C05/C08.  Whatever an entry is and however it ends, what earlier entries established
   is still there afterwards and the heap invariant holds again (C12_entry_keeps_what_was_established, C12_entry_keeps_the_invariant).
   REPL-versus-file equality and the echo forms are
   compared with the implementation on split programs and on histories with failing entries interleaved. *)
From PE2 Require Import Run Lemmas_Repl Eval Lemmas_Out Lemmas_ConstLogic Lemmas_ConstThm.

Theorem C12_session_survives_failing_entry : forall ped lim fuel k s s1 code d s3 diags misc,
  get_line (str_of_string "> ") s = (code, true, s1) -> plain_entry code ->
  run_source ped lim fuel true code root_id s1 = (EDiag d, s3) ->
  repl_loop ped lim fuel (S k) s diags misc = repl_loop ped lim fuel k s3 (d :: diags) misc.
Proof. intros ped lim fuel k s s1 code d s3 diags misc Hg Hp Hr. rewrite (plain_entry_step ped lim fuel k s s1 code diags misc Hg Hp), Hr. reflexivity. Qed.
Print Assumptions C12_session_survives_failing_entry.

Theorem C12_successful_entry_continues : forall ped lim fuel k s s1 code s3 diags misc,
  get_line (str_of_string "> ") s = (code, true, s1) -> plain_entry code ->
  run_source ped lim fuel true code root_id s1 = (EOk, s3) ->
  repl_loop ped lim fuel (S k) s diags misc = repl_loop ped lim fuel k s3 diags misc.
Proof. intros ped lim fuel k s s1 code s3 diags misc Hg Hp Hr. rewrite (plain_entry_step ped lim fuel k s s1 code diags misc Hg Hp), Hr. reflexivity. Qed.
Print Assumptions C12_successful_entry_continues.

Theorem C12_lexically_wrong_entry_no_effect : forall ped lim fuel code root s e,
  lex ped code = inr e -> exists s', run_source ped lim fuel true code root s = (EDiag (diag_of_lex e), s') /\
  s_cells s' = s_cells s /\ s_arrs s' = s_arrs s /\ s_ctxs s' = s_ctxs s /\ s_procs s' = s_procs s /\ s_funcs s' = s_funcs s /\
  s_fs s' = s_fs s /\ s_files s' = s_files s /\ s_in s' = s_in s.
Proof. exact syntax_error_entry_no_effect. Qed.
Print Assumptions C12_lexically_wrong_entry_no_effect.

Example C12_plain_entry_example : plain_entry (str_of_string "x <- 5") /\ ~ plain_entry (str_of_string "IF x THEN").
Proof. split; [unfold plain_entry; vm_compute; repeat split; congruence|]. unfold plain_entry. vm_compute. intros [_ [_ [_ [_ H]]]]. discriminate. Qed.

(* an entry -- whatever its text, accepted or rejected by lexer or parser, successful or failing at run time half-way through --
   neither removes nor retypes anything established before it: every variable that existed still exists with its name, type,
   CONSTANT flag and owner, every (protected) constant has its value, every array is the same array; and the state it leaves
   satisfies the heap invariant again, so the same holds for the next entry.  (Program logic of Lemmas_ConstLogic.v.) *)
Theorem C12_entry_keeps_what_was_established : forall ped lim fuel repl src root s, Inv s ->
  let s' := snd (run_source ped lim fuel repl src root s) in
  (forall id cl, nm_get id (s_cells s) = Some cl -> exists cl', nm_get id (s_cells s') = Some cl' /\ same_meta cl cl') /\
  (forall id cl, nm_get id (s_cells s) = Some cl -> protected_cell s cl -> nm_get id (s_cells s') = Some cl) /\
  (forall id a, nm_get id (s_arrs s) = Some a -> nm_get id (s_arrs s') = Some a).
Proof. exact entry_keeps_variables_constants_arrays. Qed.
Print Assumptions C12_entry_keeps_what_was_established.

Theorem C12_entry_keeps_the_invariant : forall ped lim fuel repl src root s, Inv s -> Inv (snd (run_source ped lim fuel repl src root s)).
Proof. intros ped lim fuel repl src root s H. exact (proj1 (run_source_keeps ped lim fuel repl src root s H)). Qed.
Print Assumptions C12_entry_keeps_the_invariant.
