(* Lemmas_Run.v — what the launchers (Run.v) add around the evaluator: the parser's warnings, the closing of file
   handles, the text of an observation's standard output, the main block's final state; and that a lexical or a syntax
   error ends the run before anything executes. *)
From PE2 Require Import Run Lemmas_Frame.
Local Open Scope Z_scope.

Lemma emit_warnings_spec ws s : emit_warnings ws s = set_out (rev (map warning_text (rev ws)) ++ s_out s) s.
Proof.
  unfold emit_warnings. generalize (rev ws) as l. intros l. revert s.
  induction l as [|w l IH]; intros s; cbn [fold_left map rev app]; [destruct s; reflexivity|].
  rewrite IH, <- app_assoc. reflexivity.
Qed.

(* closing the handles writes random files back to disk; standard output is not touched (the combinators of
   Lemmas_Frame.v, for the relation "the same output") *)
Lemma close_all_files_out s : s_out (snd (close_all_files s)) = s_out s.
Proof.
  set (I := fun a b : st => s_out b = s_out a).
  assert (R : forall a, I a a) by reflexivity. assert (T : forall a b c, I a b -> I b c -> I a c) by (unfold I; congruence).
  revert s. apply (Pr_bind I R T); [apply (Pr_ro I R), ro_gets|]. intros fl.
  apply (Pr_bind I R T); [|intros _; apply Pr_modify; reflexivity].
  apply (Pr_iterM I R T). intros f. unfold close_file_effect.
  destruct (of_mode f), (of_modified f); try apply (Pr_ret I R); apply Pr_modify; reflexivity.
Qed.
Lemma close_all_no_handles s : s_files s = [] -> close_all_files s = (Ok Datatypes.tt, set_files [] s).
Proof. intros H. unfold close_all_files, bind, gets, modify. rewrite H. reflexivity. Qed.

Lemma out_string_emit x s : out_string (set_out (x :: s_out s) s) = out_string s ++ x.
Proof. unfold out_string. cbn [s_out set_out rev]. rewrite concat_app. cbn [List.concat]. apply f_equal, app_nil_r. Qed.
Lemma finish_out r s diags misc : ob_out (finish r s diags misc) = out_string s.
Proof.
  unfold finish. change (let (_, x) := close_all_files s in x) with (snd (close_all_files s)).
  destruct r; cbn [ob_out]; unfold out_string; rewrite close_all_files_out; reflexivity.
Qed.

Section RunLaws.
Variable ped : bool.
Variable lim : limits.
Variable fuel : nat.

Lemma run_file_out content stdin fs rnd :
  ob_out (run_file ped lim fuel content stdin fs rnd) =
  out_string (snd (run_source ped lim fuel false (content ++ [ch_nl]) root_id (init_state stdin fs rnd))).
Proof.
  unfold run_file. cbv zeta. destruct (run_source ped lim fuel false (content ++ [ch_nl]) root_id (init_state stdin fs rnd)) as [r s1].
  change (let (_, x) := close_all_files s1 in x) with (snd (close_all_files s1)).
  rewrite finish_out. unfold out_string. rewrite close_all_files_out. reflexivity.
Qed.

(* the main block ends in the state its block ended in: a stray BREAK or CONTINUE only walks the context chain *)
Lemma run_main_state repl b root s : snd (run_main ped lim fuel repl b root s) = snd (run_block ped repl lim fuel b root s).
Proof.
  unfold run_main. destruct (run_block ped repl lim fuel b root s) as [[u|f] s1]; [reflexivity|]. destruct f; try reflexivity.
  1, 2: assert (G : snd (@rt_error unit t root s1) = s1) by apply ro_runtime_error_cls; destruct (@rt_error unit t root s1) as [[u|f] s2]; [exact G|destruct f; exact G].
Qed.

(* a lexical error: nothing ran; stdout holds only the blank line the launcher prints before a diagnostic *)
Lemma lex_error_no_effects content stdin fs rnd e :
  lex ped (content ++ [ch_nl]) = inr e ->
  run_file ped lim fuel content stdin fs rnd = mkObs [ch_nl] [diag_of_lex e] 1 fs SDone [].
Proof. intros H. unfold run_file, run_source. rewrite H. reflexivity. Qed.

(* a syntax error: nothing ran; stdout holds parser warnings (diagnostics) and the blank line *)
Lemma parse_error_observation content stdin fs rnd toks k t ps :
  lex ped (content ++ [ch_nl]) = inl toks -> parse_program ped toks = PFail k t ps ->
  run_file ped lim fuel content stdin fs rnd =
  mkObs (List.concat (map warning_text (rev (p_warns ps))) ++ [ch_nl]) [diag_of_parse k t] 1 fs SDone [].
Proof.
  intros Hl Hp. unfold run_file, run_source. rewrite Hl, Hp. cbv zeta. rewrite emit_warnings_spec.
  rewrite close_all_no_handles by reflexivity. unfold finish. rewrite close_all_no_handles by reflexivity.
  unfold out_string. cbn [s_out s_fs set_files set_out init_state rev app].
  rewrite app_nil_r, rev_involutive, concat_app. cbn [List.concat]. rewrite app_nil_r. reflexivity.
Qed.
Lemma parse_error_no_effects content stdin fs rnd toks k t ps :
  lex ped (content ++ [ch_nl]) = inl toks -> parse_program ped toks = PFail k t ps ->
  let o := run_file ped lim fuel content stdin fs rnd in
  ob_diags o = [diag_of_parse k t] /\ ob_exit o = 1 /\ ob_fs o = fs /\ ob_status o = SDone /\
  ob_out o = List.concat (map warning_text (rev (p_warns ps))) ++ [ch_nl].
Proof. intros Hl Hp. cbv zeta. rewrite (parse_error_observation _ _ _ _ _ _ _ _ Hl Hp). repeat split. Qed.
End RunLaws.
