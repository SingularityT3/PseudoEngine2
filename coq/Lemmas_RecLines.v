(* Lemmas_RecLines.v — the records of a random file and the physical lines of the file on disk (File::close writes
   one record after the other, each followed by a line break; File::File reads the lines back and glues every line
   that starts with '#' to the record before it).  For every list of records each of which is line safe (every line
   break in it is followed by '#'), not empty and not itself starting with '#', reading the file back gives exactly
   the list that was written; and every value the codec can write (Lemmas_CodecTree.wf) is such a record.  So
   CLOSEFILE followed by OPENFILE, or a later run of the interpreter, sees the sequence of records unchanged. *)
From PE2 Require Import Codec Files Lemmas_Codec Lemmas_Numerals Lemmas_CodecTree Lemmas_Handles.
Local Open Scope Z_scope.

Definition starts_hash (l : str) : bool := match l with c :: _ => aeqb c ch_hash | [] => false end.
Definition rec_ok (r : str) : Prop := line_safe r = true /\ r <> [] /\ starts_hash r = false.

Lemma split_lines_aux_app a : forall cur rest,
  split_lines_aux (a ++ ch_nl :: rest) cur = split_lines_aux a cur ++ split_lines_aux rest [].
Proof.
  induction a as [|c a IH]; intros cur rest; cbn [app split_lines_aux].
  - rewrite Ascii.eqb_refl. reflexivity.
  - destruct (aeqb c ch_nl); [rewrite IH; reflexivity|apply IH].
Qed.

(* The lines of a line-safe text are merged back into the text: where it is broken, the next line starts with '#' and is glued
   to what came before.  So to the merge the text counts as one line. *)
Lemma merge_lines : forall r cur more acc, line_safe r = true ->
  merge_records (split_lines_aux r cur ++ more) acc = merge_records ((rev cur ++ r) :: more) acc.
Proof.
  induction r as [|c r IH]; intros cur more acc Hs; cbn [split_lines_aux].
  - rewrite app_nil_r. reflexivity.
  - cbn [line_safe] in Hs. destruct (aeqb c ch_nl) eqn:E.
    + apply Ascii.eqb_eq in E. subst c. destruct r as [|h r]; [discriminate|]. apply andb_true_iff in Hs. destruct Hs as [Hh Hs].
      apply Ascii.eqb_eq in Hh. subst h. change ((?a :: ?b) ++ more) with (a :: b ++ more).
      (* one step of the merge on the line that ends here, on either side, by what that line and acc are *)
      destruct (rev cur) as [|x t], acc as [|last acc']; cbn [merge_records app]; try destruct (aeqb x ch_hash);
        rewrite IH by exact Hs; cbn [rev app merge_records]; rewrite Ascii.eqb_refl, <- ?app_assoc; reflexivity.
    + rewrite IH by exact Hs. cbn [rev]. rewrite <- app_assoc. reflexivity.
Qed.

Lemma store_records_cons r rs : store_records (r :: rs) = r ++ ch_nl :: store_records rs.
Proof. unfold store_records. cbn [map List.concat]. rewrite <- app_assoc. reflexivity. Qed.

Lemma merge_stored : forall rs acc, Forall rec_ok rs ->
  merge_records (split_lines_aux (store_records rs) []) acc = [] :: rev rs ++ acc.
Proof.
  induction rs as [|r rs IH]; intros acc F; [reflexivity|]. inversion F as [|? ? (Hs & Hn & Hh) Hr]; subst.
  rewrite store_records_cons, split_lines_aux_app, merge_lines by exact Hs.
  (* r starts a record of its own *)
  destruct r as [|x t]; [congruence|]. cbn in Hh.
  destruct acc; cbn [rev app merge_records]; rewrite ?Hh, IH by exact Hr; cbn [rev]; rewrite <- app_assoc; reflexivity.
Qed.

Lemma drop_empty_front_rev rs : Forall rec_ok rs -> drop_empty_front (rev rs) = rev rs.
Proof.
  intros F. destruct (rev rs) as [|x t] eqn:E; [reflexivity|].
  assert (Hin : In x rs) by (apply in_rev; rewrite E; left; reflexivity).
  rewrite Forall_forall in F. destruct (F x Hin) as [_ [Hn _]]. destruct x; [contradiction|reflexivity].
Qed.

(* what File::close wrote is what File::File reads *)
Theorem load_store_records rs : Forall rec_ok rs -> load_records (store_records rs) = rs.
Proof.
  intros F. destruct rs as [|r rs]; [reflexivity|].
  unfold load_records. rewrite store_records_cons.
  destruct (r ++ ch_nl :: store_records rs) eqn:E; [destruct r; discriminate|]. rewrite <- E. clear E.
  rewrite <- store_records_cons. unfold split_lines. rewrite merge_stored by exact F.
  cbn [drop_empty_front]. rewrite app_nil_r, drop_empty_front_rev by exact F. apply rev_involutive.
Qed.

(* ---- every record the codec writes is such a record ---- *)
Lemma line_safe_app a : forall b, line_safe a = true -> line_safe b = true -> line_safe (a ++ b) = true.
Proof.
  induction a as [|c r IH]; intros b Ha Hb; [exact Hb|]. cbn [app line_safe] in *.
  destruct (aeqb c ch_nl).
  - destruct r as [|h r']; [discriminate|]. apply andb_true_iff in Ha. destruct Ha as [Hh Hr].
    cbn [app]. rewrite Hh. cbn [andb]. apply (IH b Hr Hb).
  - apply IH; assumption.
Qed.
(* a line break is a blank *)
Lemma no_space_line_safe w : no_space w = true -> line_safe w = true.
Proof.
  unfold no_space. induction w as [|c r IH]; [reflexivity|]. cbn [forallb line_safe]. intros H. apply andb_true_iff in H.
  destruct H as [Hc Hr]. apply negb_true_iff in Hc. rewrite (aeqb_differ is_cspace c ch_nl) by (rewrite Hc; discriminate). exact (IH Hr).
Qed.
Lemma z_to_str_line_safe z : line_safe (z_to_str z) = true.
Proof.
  apply no_space_line_safe. destruct (z_to_str_spec z) as (ds & _ & Hd & _ & ->). apply digits_no_space in Hd.
  destruct (z <? 0); exact Hd.
Qed.

Create HintDb line_safe.
#[local] Hint Resolve line_safe_app z_to_str_line_safe mark_newlines_line_safe no_space_line_safe : line_safe.
#[local] Hint Extern 1 (line_safe _ = true) => reflexivity : line_safe.

Lemma join_sp_line_safe ds : all (fun d => line_safe d = true) ds -> line_safe (join_sp ds) = true.
Proof.
  induction ds as [|d r IH]; [reflexivity|]. intros [Hd Hr]. cbn [join_sp]. destruct r as [|d2 r2]; [exact Hd|].
  specialize (IH Hr). auto with line_safe.
Qed.

Lemma arr_line_safe a : all (fun x => forall dx, wf x -> dump x = Some dx -> line_safe dx = true) a ->
  forall da, wf_arr a -> dump_arr' a = Some da -> line_safe da = true.
Proof.
  intros H da (_ & _ & Hw) Hd. destruct (dump_arr_inv a da Hd) as (ds & E & ->).
  pose proof (join_sp_line_safe ds (dump_seq_all dump wf _ a H Hw ds E)). auto 6 with line_safe.
Qed.

Theorem dump_line_safe : forall v dx, wf v -> dump v = Some dx -> line_safe dx = true.
Proof.
  induction v as [v IH] using vtree_sub_ind. intros dx Hwf Hd.
  destruct v as [z|r|b|c|s|d m y|tn size idx| |tn fs ars]; try contradiction; [apply Some_inj in Hd; subst dx..|].
  - auto with line_safe.
  - destruct b; reflexivity.
  - apply line_safe_app; [reflexivity|]. destruct (aeqb c ch_nl) eqn:E; cbn [app line_safe]; rewrite E; reflexivity.
  - auto 6 with line_safe.
  - auto 8 with line_safe.
  - destruct Hwf as (_ & Hns & _). auto 6 with line_safe.
  - rewrite wf_rec in Hwf. destruct Hwf as (_ & Hns & _ & Hwf1 & Hwf2). destruct IH as [IHf IHa].
    destruct (dump_rec_inv tn fs ars dx Hd) as (dfs & dars & Efs & Ears & ->).
    pose proof (join_sp_line_safe dfs (dump_seq_all dump wf _ fs IHf Hwf1 dfs Efs)).
    pose proof (join_sp_line_safe dars (dump_seq_all dump_arr' wf_arr _ ars (all_impl arr_line_safe ars IHa) Hwf2 dars Ears)).
    destruct dars; auto 8 with line_safe.
Qed.

(* a written value starts with the letter of its tag: never empty, never '#' *)
Lemma dump_head v dx : wf v -> dump v = Some dx -> dx <> [] /\ starts_hash dx = false.
Proof.
  intros Hwf Hd. destruct v as [z|r|b|c|s|d m y|tn size idx| |tn fs ars]; try contradiction; [cbn [dump] in Hd..|].
  1,3-6: inversion Hd; subst; split; [discriminate|reflexivity].
  - inversion Hd; subst. destruct b; split; try discriminate; reflexivity.
  - destruct (dump_rec_inv tn fs ars dx Hd) as (dfs & dars & _ & _ & ->). split; [discriminate|reflexivity].
Qed.

Theorem dump_is_record v dx : wf v -> dump v = Some dx -> rec_ok dx.
Proof.
  intros Hwf Hd. destruct (dump_head v dx Hwf Hd) as [Hn Hh].
  split; [exact (dump_line_safe v dx Hwf Hd)|]. split; assumption.
Qed.

(* the file as a whole: the values written, in order, are the values read after the file was closed and opened again;
   dump_all is dump_seq dump (Codec.dump_list) under a name of its own *)
Fixpoint dump_all (vs : list vtree) : option (list str) :=
  match vs with
  | [] => Some []
  | v :: r => match dump v, dump_all r with Some a, Some b => Some (a :: b) | _, _ => None end
  end.
Theorem file_of_values_reopens vs recs : Forall wf vs -> dump_all vs = Some recs ->
  load_records (store_records recs) = recs.
Proof.
  intros F E. apply load_store_records. revert recs E. induction vs as [|v r IH]; intros recs E.
  - inversion E. constructor.
  - inversion F as [|? ? Hv Hr]; subst. destruct (dump_seq_cons dump v r recs E) as (a & b & Ea & Eb & ->).
    constructor; [exact (dump_is_record v a Hv Ea)|exact (IH Hr b Eb)].
Qed.

(* CLOSEFILE of a modified random file followed by OPENFILE ... FOR RANDOM of the same name: the new handle holds
   exactly the records the old one held, with the cursor on the first record *)
Theorem close_then_reopen f s : of_mode f = FRandom -> of_modified f = true -> os_name_ok (of_name f) = true ->
  Forall rec_ok (of_recs f) ->
  exists s1 s2, close_file_effect f s = (Ok Datatypes.tt, s1) /\ s_files s1 = s_files s /\
                create_file (of_name f) FRandom s1 = (Ok true, s2) /\ s_fs s2 = s_fs s1 /\
                s_files s2 = s_files s ++ [mkOfile (of_name f) FRandom [] (of_recs f) 0 false].
Proof.
  intros Hm Hd Hn Hr. destruct (close_random_flushes f s Hm Hd) as [s1 [E1 G1]].
  assert (Hf : s_files s1 = s_files s).
  { unfold close_file_effect in E1. rewrite Hm, Hd in E1. unfold modify in E1. inversion E1. reflexivity. }
  exists s1. rewrite create_file_ok_name, G1 by exact Hn.
  eexists. split; [exact E1|]. split; [exact Hf|]. split; [reflexivity|]. split; [reflexivity|].
  cbn. rewrite Hf, load_store_records by exact Hr. reflexivity.
Qed.
