(* Lemmas_HeapInv.v — the frame theorem over the whole evaluator (every program, fuel and outcome), for each component of the heap:
   identifiers in use stay below the allocation counter; an array, once created, is never changed (its bounds,
   element type and the list of its element cells are fixed), no array and no context ever disappears, cells keep
   name, type, CONSTANT flag and owner.  Hence the premise of the deep-copy theorems (Lemmas_DeepCopy.hb) holds in
   every state a program can reach from the initial state. *)
From PE2 Require Import Eval Lemmas_Frame Lemmas_Out Lemmas_DeepCopy.
Require Import Lia.
Local Open Scope N_scope.

Definition heap_kept (s s' : st) : Prop :=
  hb s ->
  hb s' /\ s_next s <= s_next s' /\
  (forall id c, nm_get id (s_cells s) = Some c -> exists c', nm_get id (s_cells s') = Some c' /\ same_meta c c') /\
  (forall id a, nm_get id (s_arrs s) = Some a -> nm_get id (s_arrs s') = Some a) /\
  (forall id c, nm_get id (s_ctxs s) = Some c -> exists c', nm_get id (s_ctxs s') = Some c').

Lemma arrs_kept_frame : frame_ok (kept s_arrs eq).
Proof.
  constructor; intros; try (apply kept_same; [reflexivity|reflexivity|cbn; lia]).
  - apply kept_same; [reflexivity|apply (core_arrs _ _ H)|rewrite (core_next _ _ H); lia].
  - apply (kept_put _ _ (@eq_refl _) _ _ (s_next s) a); [reflexivity|cbn; lia|cbn; lia|intros; lia].
Qed.
Lemma ctxs_kept_frame : frame_ok (kept s_ctxs (fun _ _ => True)).
Proof.
  constructor; intros; try (apply kept_same; [exact (fun _ => I)|reflexivity|cbn; lia]).
  - apply kept_same; [exact (fun _ => I)|apply (core_ctxs _ _ H)|rewrite (core_next _ _ H); lia].
  - apply (kept_put _ _ (fun _ => I) _ _ (s_next s) c); [reflexivity|cbn; lia|cbn; lia|intros; exact I].
  - apply (kept_put _ _ (fun _ => I) _ _ id c'); [reflexivity|cbn; lia|intros Hb; apply (Hb id c H)|intros; exact I].
Qed.

Theorem run_block_keeps_heap ped repl lim fuel bl c s : heap_kept s (snd (run_block ped repl lim fuel bl c s)).
Proof.
  intros [H1 [H2 H3]].
  destruct (run_block_keeps_cell_identity ped repl lim fuel bl c s H1) as [B1 [L K1]].
  destruct (Pr_run_block _ (kept_refl _ _ (@eq_refl _)) (kept_trans _ _ (@eq_trans _)) arrs_kept_frame ped repl lim fuel bl c s H2) as [B2 [_ K2]].
  destruct (Pr_run_block _ (kept_refl _ _ (fun _ => I)) (kept_trans _ _ (fun _ _ _ _ _ => I)) ctxs_kept_frame ped repl lim fuel bl c s H3) as [B3 [_ K3]].
  split; [exact (conj B1 (conj B2 B3))|]. split; [exact L|]. split; [exact K1|]. split.
  - intros id a E. destruct (K2 id a E) as [a' [E' <-]]. exact E'.
  - intros id x E. destruct (K3 id x E) as [x' [E' _]]. exists x'. exact E'.
Qed.

Corollary run_block_keeps_hb ped repl lim fuel bl c s : hb s -> hb (snd (run_block ped repl lim fuel bl c s)).
Proof. intros H. apply (run_block_keeps_heap ped repl lim fuel bl c s H). Qed.

(* an array never changes once created: bounds, element type and the identity of its element cells are fixed *)
Corollary arrays_are_immutable ped repl lim fuel bl c s id a : hb s -> nm_get id (s_arrs s) = Some a ->
  nm_get id (s_arrs (snd (run_block ped repl lim fuel bl c s))) = Some a.
Proof. intros H E. destruct (run_block_keeps_heap ped repl lim fuel bl c s H) as [_ [_ [_ [A _]]]]. apply A. exact E. Qed.
