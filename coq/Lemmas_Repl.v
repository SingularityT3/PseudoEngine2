(* Lemmas_Repl.v — the REPL loop (C12): one step of it on a plain entry, whatever the entry's outcome; an entry the lexer rejects. *)
From PE2 Require Import Run.
Local Open Scope Z_scope.

Section Repl.
Variable ped : bool.
Variable lim : limits.
Variable fuel : nat.

Definition plain_entry (code : str) : Prop :=
  code <> [] /\ str_eqb code (str_of_string "?") = false /\ str_eqb code (str_of_string "EXIT") = false /\
  starts_with (str_of_string "RUNFILE") code = false /\ first_keyword code multiline_keywords = None.

(* a plain entry is run as it stands, and what it ends in decides how the loop goes on: neither success nor a
   diagnostic ends the session *)
Lemma plain_entry_step k s s1 code diags misc :
  get_line (str_of_string "> ") s = (code, true, s1) -> plain_entry code ->
  repl_loop ped lim fuel (S k) s diags misc =
  match run_source ped lim fuel true code root_id s1 with
  | (EOk, s3) => repl_loop ped lim fuel k s3 diags misc
  | (EDiag d, s3) => repl_loop ped lim fuel k s3 (d :: diags) misc
  | (EAbort st0, s3) => finish (EAbort st0) s3 diags misc
  end.
Proof.
  intros Hg [H0 [H1 [H2 [H3 H4]]]]. cbn [repl_loop]. rewrite Hg. cbn [negb].
  destruct code as [|ch rest0]; [contradiction|]. rewrite H1, H2, H3, H4. reflexivity.
Qed.

(* an entry the lexer rejects leaves cells, arrays, contexts, routines, files and input as they were (it prints the blank line
   before the diagnostic) *)
Lemma syntax_error_entry_no_effect code root s e :
  lex ped code = inr e -> exists s', run_source ped lim fuel true code root s = (EDiag (diag_of_lex e), s') /\
  s_cells s' = s_cells s /\ s_arrs s' = s_arrs s /\ s_ctxs s' = s_ctxs s /\ s_procs s' = s_procs s /\ s_funcs s' = s_funcs s /\
  s_fs s' = s_fs s /\ s_files s' = s_files s /\ s_in s' = s_in s.
Proof. intros H. unfold run_source. rewrite H. eexists. split; [reflexivity|]. cbn. repeat split; reflexivity. Qed.
End Repl.
