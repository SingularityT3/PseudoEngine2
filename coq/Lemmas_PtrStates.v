(* Lemmas_PtrStates.v -- what a pointer denotes: `p <- ^v` records v's own cell in p; `p^` resolves to exactly that cell while the
   activation that owns it is on the chain of the current one; an unset pointer and a pointer whose target's activation is gone are
   runtime errors that leave the whole state as it was (nothing else is read or written); the assignment is type-checked.
   For every state and context; the inner resolutions (of p, of v) are any that do not touch the state. *)
From PE2 Require Import Eval Lemmas_Frame Lemmas_Store.
Local Open Scope N_scope.

Section Deref.
Variables (ped repl : bool) (lim : limits) (fuel : nat).
Notation rs := (ev_resolve (evs_at ped repl lim (S fuel))).

(* what is left of p^ once p is known to be a pointer variable: the liveness test on the owner, then the target *)
Lemma deref_of_a_pointer t {r' c s id cl tn tgt owner} :
  ev_resolve (evs_at ped repl lim fuel) r' c s = (Ok (HVar id), s) -> nm_get id (s_cells s) = Some cl ->
  dk (c_type cl) = KPtr -> c_val cl = PPtr tn tgt owner ->
  rs (RDeref t r') c s =
  (live <- on_chain c owner ;; if negb live then rt_error t c else match tgt with None => rt_error t c | Some tid => ret (HVar tid) end) s.
Proof. intros Hr Ec Hk%dt_is_true Hv. rewrite resolve_S. cbn [resolve_body]. rewrite (bind_ok Hr), (bind_ok (get_cell_at Ec)), Hk, Hv. reflexivity. Qed.

(* p^ denotes the variable recorded in p *)
Theorem deref_resolves_to_the_target t r' c s id cl tn tid owner :
  ev_resolve (evs_at ped repl lim fuel) r' c s = (Ok (HVar id), s) -> nm_get id (s_cells s) = Some cl ->
  dk (c_type cl) = KPtr -> c_val cl = PPtr tn (Some tid) owner -> on_chain c owner s = (Ok true, s) ->
  rs (RDeref t r') c s = (Ok (HVar tid), s).
Proof. intros Hr Ec Hk Hv Hl. rewrite (deref_of_a_pointer t Hr Ec Hk Hv), (bind_ok Hl). reflexivity. Qed.

(* a pointer that was never set: a runtime error, the state untouched *)
Theorem deref_of_an_unset_pointer_is_an_error t r' c s id cl tn owner :
  ev_resolve (evs_at ped repl lim fuel) r' c s = (Ok (HVar id), s) -> nm_get id (s_cells s) = Some cl ->
  dk (c_type cl) = KPtr -> c_val cl = PPtr tn None owner ->
  exists f, rs (RDeref t r') c s = (Fail f, s).
Proof.
  intros Hr Ec Hk Hv. rewrite (deref_of_a_pointer t Hr Ec Hk Hv).
  destruct (ro_run (ro_on_chain c owner) s) as [[live|e] E]; [rewrite (bind_ok E)|rewrite (bind_fail E); eauto].
  destruct live; apply rt_error_pure.
Qed.

(* a pointer whose target belonged to an activation that is no longer on the chain: a runtime error, the state untouched *)
Theorem deref_of_a_dead_target_is_an_error t r' c s id cl tn tgt owner :
  ev_resolve (evs_at ped repl lim fuel) r' c s = (Ok (HVar id), s) -> nm_get id (s_cells s) = Some cl ->
  dk (c_type cl) = KPtr -> c_val cl = PPtr tn tgt owner -> on_chain c owner s = (Ok false, s) ->
  exists f, rs (RDeref t r') c s = (Fail f, s).
Proof. intros Hr Ec Hk Hv Hl. rewrite (deref_of_a_pointer t Hr Ec Hk Hv), (bind_ok Hl). apply rt_error_pure. Qed.

Theorem deref_of_a_non_pointer_is_an_error t r' c s id cl :
  ev_resolve (evs_at ped repl lim fuel) r' c s = (Ok (HVar id), s) -> nm_get id (s_cells s) = Some cl -> dk (c_type cl) <> KPtr ->
  exists f, rs (RDeref t r') c s = (Fail f, s).
Proof.
  intros Hr Ec Hk%dt_is_false. rewrite resolve_S. cbn [resolve_body]. rewrite (bind_ok Hr), (bind_ok (get_cell_at Ec)), Hk. apply rt_error_pure.
Qed.
End Deref.

Section Assign.
Variables (ped repl : bool) (lim : limits) (fuel : nat).
Notation ev := (ev_eval (evs_at ped repl lim (S fuel))).

(* what is left of p <- ^v once p is known to be a pointer variable, v a variable and the pointer type declared: the type test *)
Lemma pointer_assignment_of_a_variable t {pr vr c s pid vid pc vc tn old oldo target_ty} :
  ev_resolve (evs_at ped repl lim fuel) pr c s = (Ok (HVar pid), s) -> ev_resolve (evs_at ped repl lim fuel) vr c s = (Ok (HVar vid), s) ->
  nm_get pid (s_cells s) = Some pc -> nm_get vid (s_cells s) = Some vc -> dk (c_type pc) = KPtr -> c_val pc = PPtr tn old oldo ->
  lookup_ptr_def c tn true s = (Ok (Some target_ty), s) ->
  ev (NPtrAssign t pr vr) c s =
  (if negb (dt_eq target_ty (c_type vc)) then rt_error t c
   else owner <- nonrec_ancestor (c_owner vc) ;; set_cell_val pid (PPtr tn (Some vid) owner) ;;; ret res_none) s.
Proof.
  intros Hp Hv Ep Ev Hk%dt_is_true Hpv Hd.
  rewrite eval_S. cbn [eval_body]. rewrite (bind_ok Hp). cbn [expect_holder_var].
  rewrite bind_ret, (bind_ok Hv), (bind_ok (get_cell_at Ep)), (bind_ok (get_cell_at Ev)), Hk, Hpv. cbn [negb].
  rewrite (bind_ok Hd). reflexivity.
Qed.

(* p <- ^v : p's cell receives v's own cell identifier and the activation that owns v; nothing else changes *)
Theorem pointer_assignment_records_the_variable t pr vr c s pid vid pc vc tn old oldo target_ty owner :
  ev_resolve (evs_at ped repl lim fuel) pr c s = (Ok (HVar pid), s) -> ev_resolve (evs_at ped repl lim fuel) vr c s = (Ok (HVar vid), s) ->
  nm_get pid (s_cells s) = Some pc -> nm_get vid (s_cells s) = Some vc -> dk (c_type pc) = KPtr -> c_val pc = PPtr tn old oldo ->
  lookup_ptr_def c tn true s = (Ok (Some target_ty), s) -> dt_eq target_ty (c_type vc) = true ->
  nonrec_ancestor (c_owner vc) s = (Ok owner, s) ->
  ev (NPtrAssign t pr vr) c s =
    (Ok res_none, set_cells (nm_put pid (mkCell (c_name pc) (c_type pc) (c_const pc) (c_owner pc) (PPtr tn (Some vid) owner)) (s_cells s)) s).
Proof.
  intros Hp Hv Ep Ev Hk Hpv Hd Ht Ho. rewrite (pointer_assignment_of_a_variable t Hp Hv Ep Ev Hk Hpv Hd), Ht. cbn [negb].
  rewrite (bind_ok Ho), (bind_ok (set_cell_val_at _ Ep)). reflexivity.
Qed.

(* taking a pointer is type-checked against the pointer type's declared target type: a variable of another type is a runtime
   error, the state untouched *)
Theorem pointer_assignment_is_type_checked t pr vr c s pid vid pc vc tn old oldo target_ty :
  ev_resolve (evs_at ped repl lim fuel) pr c s = (Ok (HVar pid), s) -> ev_resolve (evs_at ped repl lim fuel) vr c s = (Ok (HVar vid), s) ->
  nm_get pid (s_cells s) = Some pc -> nm_get vid (s_cells s) = Some vc -> dk (c_type pc) = KPtr -> c_val pc = PPtr tn old oldo ->
  lookup_ptr_def c tn true s = (Ok (Some target_ty), s) -> dt_eq target_ty (c_type vc) = false ->
  exists f, ev (NPtrAssign t pr vr) c s = (Fail f, s).
Proof.
  intros Hp Hv Ep Ev Hk Hpv Hd Ht. rewrite (pointer_assignment_of_a_variable t Hp Hv Ep Ev Hk Hpv Hd), Ht. apply rt_error_pure.
Qed.

(* ... so that afterwards p^ denotes v itself *)
Theorem after_the_assignment_the_pointer_denotes_the_variable t' pr c s pid vid pc tn owner :
  let s' := set_cells (nm_put pid (mkCell (c_name pc) (c_type pc) (c_const pc) (c_owner pc) (PPtr tn (Some vid) owner)) (s_cells s)) s in
  dk (c_type pc) = KPtr -> ev_resolve (evs_at ped repl lim fuel) pr c s' = (Ok (HVar pid), s') -> on_chain c owner s' = (Ok true, s') ->
  ev_resolve (evs_at ped repl lim (S fuel)) (RDeref t' pr) c s' = (Ok (HVar vid), s').
Proof.
  intros s' Hk Hr Hl. eapply deref_resolves_to_the_target; [exact Hr| | | |exact Hl].
  - unfold s'. cbn [s_cells set_cells]. apply nm_get_put_same.
  - exact Hk.
  - reflexivity.
Qed.
End Assign.
