(* Properties_C05.v — variables keep their declared type; bad stores are rejected without effect.
   Proved over the whole evaluator (every syntax tree, fuel and outcome, every store channel: assignment, BYVAL and BYREF binding,
   RETURN, INPUT, READFILE, GETRECORD, FOR, record and array copy, pointer assignment): a variable keeps its declared type
   (C05_variables_keep_their_declared_type) and the value it holds is always of the kind that type says -- nothing is ever
   reinterpreted as another type (C05_values_are_never_reinterpreted); every value an expression yields is of the kind its result
   type says (C05_results_have_their_type).  The conversion step shared by all channels admits exactly the three documented
   conversions (C05_implicit_cast_table and the value lemmas).
   The same holds for the NAME of a user type (C05_values_keep_their_user_type): record and array copies rely on the layout
   comparison made just before them, and the proof uses what a successful comparison says about the pairs of fields and elements.
   PARTIAL: "a rejected store leaves the target's previous value intact" is proved for the assignment channel's store sequence
   (C05_failed_store_no_effect); for argument binding, RETURN and INPUT it is compared by the correspondence. *)
From PE2 Require Import Eval Run Lemmas_Store Lemmas_Out Lemmas_ConstLogic Lemmas_ConstThm Lemmas_IoStates.
Local Open Scope Z_scope.

(* implicitCast always succeeds, keeps tag and payload in agreement, and makes the value's type equal to
   the target's exactly when the value already has it or one of the three documented conversions applies *)
Theorem C05_implicit_cast_table : forall target r s, well_tagged r ->
  exists r', implicit_cast target r s = (Ok r', s) /\ well_tagged r' /\
             (dk (r_type r') = dk target <-> convertible (dk target) r).
Proof. exact implicit_cast_total. Qed.
Print Assumptions C05_implicit_cast_table.

Theorem C05_integer_to_real_value : forall nm z s,
  implicit_cast (dt_prim KReal) (mkRes (mkDT KInt nm) (Some (PInt z))) s = (Ok (res_of KReal (PReal (real_of_z z))), s).
Proof. reflexivity. Qed.
Print Assumptions C05_integer_to_real_value.

Theorem C05_one_char_string_to_char_value : forall nm ch s,
  implicit_cast (dt_prim KChar) (mkRes (mkDT KStr nm) (Some (PStr [ch]))) s = (Ok (res_of KChar (PChar ch)), s).
Proof. reflexivity. Qed.
Print Assumptions C05_one_char_string_to_char_value.

Theorem C05_char_to_string_value : forall nm ch s,
  implicit_cast (dt_prim KStr) (mkRes (mkDT KChar nm) (Some (PChar ch))) s = (Ok (res_of KStr (PStr [ch])), s).
Proof. reflexivity. Qed.
Print Assumptions C05_char_to_string_value.

(* values are never silently truncated: a REAL offered to an INTEGER target is left as it is (and then rejected) *)
Theorem C05_no_real_to_integer : forall nm x s,
  implicit_cast (dt_prim KInt) (mkRes (mkDT KReal nm) (Some (PReal x))) s = (Ok (mkRes (mkDT KReal nm) (Some (PReal x))), s).
Proof. reflexivity. Qed.
Print Assumptions C05_no_real_to_integer.

(* assignment: a value that is not convertible to the target's type (or a constant target) is an error
   and the whole state -- in particular the target's previous value -- is exactly as before *)
Theorem C05_failed_store_no_effect : forall t c id v s cl,
  get_cell id s = (Ok cl, s) -> well_tagged v ->
  (c_const cl = true \/ ~ convertible (dk (c_type cl)) v) ->
  exists f, store_value t c id v s = (Fail f, s).
Proof. exact rejected_store_no_effect. Qed.
Print Assumptions C05_failed_store_no_effect.


(* over the whole evaluator: whatever a block does (assignments through every channel, calls, INPUT, file
   statements, errors, fuel exhaustion), every variable that exists keeps its name, its declared type, its CONSTANT
   flag and its owner, and does not disappear; only payloads change, and only through the one payload update *)
Theorem C05_variables_keep_their_declared_type : forall ped repl lim fuel bl c s id cl,
  (forall j x, nm_get j (s_cells s) = Some x -> (j < s_next s)%N) -> nm_get id (s_cells s) = Some cl ->
  exists cl', nm_get id (s_cells (snd (run_block ped repl lim fuel bl c s))) = Some cl' /\
              c_const cl' = c_const cl /\ c_type cl' = c_type cl /\ c_name cl' = c_name cl.
Proof. exact constant_flag_and_type_are_permanent. Qed.
Print Assumptions C05_variables_keep_their_declared_type.

(* the premise holds initially (no cells) and is itself kept by every execution *)
Theorem C05_premise_is_invariant : forall ped repl lim fuel bl c s,
  (forall j x, nm_get j (s_cells s) = Some x -> (j < s_next s)%N) ->
  (forall j x, nm_get j (s_cells (snd (run_block ped repl lim fuel bl c s))) = Some x -> (j < s_next (snd (run_block ped repl lim fuel bl c s)))%N).
Proof. intros ped repl lim fuel bl c s H. exact (proj1 (run_block_keeps_cell_identity ped repl lim fuel bl c s H)). Qed.
Print Assumptions C05_premise_is_invariant.

(* over the whole evaluator: after any block -- whatever it is, however it ends -- run in a state that satisfies the heap
   invariant (the initial state of every run does, and every block keeps it: the last two theorems of this file), every variable that
   exists holds a value of the kind its declared type says.  With C05_variables_keep_their_declared_type: the type is
   permanent and the value is always of it *)
Theorem C05_values_are_never_reinterpreted : forall ped repl lim fuel bl c s id cl, Inv s ->
  nm_get id (s_cells (snd (run_block ped repl lim fuel bl c s))) = Some cl -> payload_kind (c_val cl) = dk (c_type cl).
Proof. exact cells_hold_values_of_their_type. Qed.
Print Assumptions C05_values_are_never_reinterpreted.

(* ... and of the user type of that NAME: an enumerated, pointer or record value held by a variable carries the name of the
   variable's declared type (`named_ok p ty`: if p carries a type name, it is ty's) *)
Theorem C05_values_keep_their_user_type : forall ped repl lim fuel bl c s id cl, Inv s ->
  nm_get id (s_cells (snd (run_block ped repl lim fuel bl c s))) = Some cl -> named_ok (c_val cl) (c_type cl).
Proof. exact cells_hold_values_of_their_named_type. Qed.
Print Assumptions C05_values_keep_their_user_type.

(* a value that an expression or statement yields is of the kind and of the user type its result type says, and the state left
   behind satisfies the invariant again *)
Theorem C05_results_have_their_type : forall ped repl lim fuel n c s r s' p, Inv s ->
  ev_eval (evs_at ped repl lim fuel) n c s = (Ok r, s') -> r_val r = Some p -> payload_kind p = dk (r_type r) /\ named_ok p (r_type r) /\ Inv s'.
Proof. exact results_are_of_their_type. Qed.
Print Assumptions C05_results_have_their_type.

Theorem C05_invariant_holds_initially : forall stdin fs rnd, Inv (init_state stdin fs rnd).
Proof. exact Inv_init. Qed.
Print Assumptions C05_invariant_holds_initially.

Theorem C05_invariant_is_kept : forall ped repl lim fuel bl c s, Inv s -> Inv (snd (run_block ped repl lim fuel bl c s)).
Proof. intros ped repl lim fuel bl c s H. exact (proj1 (run_block_keeps ped repl lim fuel bl c s H)). Qed.
Print Assumptions C05_invariant_is_kept.

(* INPUT v : the typed line is converted by the variable's type (INTEGER and REAL by the numeric conversions, BOOLEAN as the test
   for "TRUE", CHAR as the first character, STRING verbatim) and stored in v; the input advances by that line; nothing else
   changes.  v is any target (name, array element, field, dereference) that resolves to an existing variable without touching the
   state; for an enumerated, pointer, record or DATE target input_value gives None: INPUT is then a runtime error *)
Theorem C05_input_stores_the_line_converted_by_type : forall ped repl lim fuel t r c s id cl line eof s1 v,
  ev_resolve (evs_at ped repl lim (S fuel)) r c s = (Ok (HVar id), s) -> nm_get id (s_cells s) = Some cl -> c_const cl = false ->
  read_line s = (Ok (line, eof), s1) -> input_value (dk (c_type cl)) line = Some v ->
  ev_eval (evs_at ped repl lim (S (S fuel))) (NInput t r) c s =
    (Ok res_none, set_cells (nm_put id (mkCell (c_name cl) (c_type cl) (c_const cl) (c_owner cl) v) (s_cells s1)) s1).
Proof. exact input_stores_the_converted_line. Qed.
Print Assumptions C05_input_stores_the_line_converted_by_type.
