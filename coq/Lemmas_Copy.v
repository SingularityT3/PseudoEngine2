(* Lemmas_Copy.v — the state monad one step at a time: forwards, when the outcome of the first part is known, and backwards, when
   the whole is known to have succeeded; the runtime error (it fails and leaves the state: the walks it makes only read);
   what copy_val and copy_ctx return (C07: a non-record value as it is, a record under the identifier just taken from the counter). *)
From PE2 Require Import Heap.
Local Open Scope Z_scope.

(* types compare by kind, and by name too when both sides have one *)
Lemma dt_eq_kind a b : dt_eq a b = true -> dk a = dk b.
Proof. unfold dt_eq. destruct (dname a), (dname b); intros H; try apply andb_prop, proj1 in H; apply dk_eqb_eq, H. Qed.

Lemma bind_ok {A B} {m : M A} {s a s1} {k : A -> M B} : m s = (Ok a, s1) -> bind m k s = k a s1.
Proof. intros H. unfold bind. rewrite H. reflexivity. Qed.
Lemma bind_fail {A B} {m : M A} {s f s1} {k : A -> M B} : m s = (Fail f, s1) -> bind m k s = (Fail f, s1).
Proof. intros H. unfold bind. rewrite H. reflexivity. Qed.
Lemma bind_ret {A B} (a : A) (k : A -> M B) s : bind (ret a) k s = k a s.
Proof. reflexivity. Qed.
Lemma bind_gets {A B} (g : st -> A) (k : A -> M B) s : bind (gets g) k s = k (g s) s.
Proof. reflexivity. Qed.
Lemma bind_fresh {B} (k : N -> M B) s : bind fresh k s = k (s_next s) (set_next (N.succ (s_next s)) s).
Proof. reflexivity. Qed.
Lemma bind_assoc {A B C} (m : M A) (k : A -> M B) (h : B -> M C) s : bind (bind m k) h s = bind m (fun a => bind (k a) h) s.
Proof. unfold bind. destruct (m s) as [[a|f] s1]; reflexivity. Qed.

Lemma get_cell_at {id s cl} : nm_get id (s_cells s) = Some cl -> get_cell id s = (Ok cl, s).
Proof. intros H. unfold get_cell. rewrite H. reflexivity. Qed.
Lemma get_arr_at {id s a} : nm_get id (s_arrs s) = Some a -> get_arr id s = (Ok a, s).
Proof. intros H. unfold get_arr. rewrite H. reflexivity. Qed.
Lemma get_ctx_at {id s cx} : nm_get id (s_ctxs s) = Some cx -> get_ctx id s = (Ok cx, s).
Proof. intros H. unfold get_ctx. rewrite H. reflexivity. Qed.

Lemma set_cell_val_at {id s cl} v : nm_get id (s_cells s) = Some cl ->
  set_cell_val id v s = (Ok Datatypes.tt, set_cells (nm_put id (mkCell (c_name cl) (c_type cl) (c_const cl) (c_owner cl) v) (s_cells s)) s).
Proof. intros H. unfold set_cell_val. rewrite (bind_ok (get_cell_at H)). reflexivity. Qed.
Lemma upd_ctx_at {id s cx} g : nm_get id (s_ctxs s) = Some cx -> upd_ctx id g s = (Ok Datatypes.tt, set_ctxs (nm_put id (g cx) (s_ctxs s)) s).
Proof. intros H. unfold upd_ctx. rewrite (bind_ok (get_ctx_at H)). reflexivity. Qed.

Lemma bind_inv {A B} (m : M A) (k : A -> M B) s b s' :
  bind m k s = (Ok b, s') -> exists x s1, m s = (Ok x, s1) /\ k x s1 = (Ok b, s').
Proof. unfold bind. destruct (m s) as [[x|f] s1]; [eauto|discriminate]. Qed.

Lemma get_cell_inv id s cl s1 : get_cell id s = (Ok cl, s1) -> s1 = s /\ nm_get id (s_cells s) = Some cl.
Proof. unfold get_cell. destruct (nm_get id (s_cells s)); intros H; inversion H; auto. Qed.
Lemma get_arr_inv id s a s1 : get_arr id s = (Ok a, s1) -> s1 = s /\ nm_get id (s_arrs s) = Some a.
Proof. unfold get_arr. destruct (nm_get id (s_arrs s)); intros H; inversion H; auto. Qed.
Lemma get_ctx_inv id s c s1 : get_ctx id s = (Ok c, s1) -> s1 = s /\ nm_get id (s_ctxs s) = Some c.
Proof. unfold get_ctx. destruct (nm_get id (s_ctxs s)); intros H; inversion H; auto. Qed.
Lemma bind_get_ctx_inv {B} id (k : ctx -> M B) s b s' :
  bind (get_ctx id) k s = (Ok b, s') -> exists c, nm_get id (s_ctxs s) = Some c /\ k c s = (Ok b, s').
Proof. intros E. apply bind_inv in E as [c [s1 [E1 E]]]. apply get_ctx_inv in E1 as [-> Ec]. eauto. Qed.
Lemma upd_ctx_spec id g s u s' : upd_ctx id g s = (Ok u, s') ->
  exists c, nm_get id (s_ctxs s) = Some c /\ s' = set_ctxs (nm_put id (g c) (s_ctxs s)) s.
Proof. unfold upd_ctx. intros E. apply bind_get_ctx_inv in E as [c [Ec E]]. exists c. split; [exact Ec|]. inversion E; reflexivity. Qed.

Lemma get_ctx_reads id s : (exists cx, get_ctx id s = (Ok cx, s)) \/ (exists w, get_ctx id s = (Fail (FCrash w), s)).
Proof. unfold get_ctx. destruct (nm_get id (s_ctxs s)); [left|right]; eexists; reflexivity. Qed.

Lemma trace_aux_reads n : forall o s,
  (exists l, trace_aux n o s = (Ok l, s)) \/ (exists w, trace_aux n o s = (Fail (FCrash w), s)).
Proof.
  induction n as [|n IH]; intros o s; cbn [trace_aux]; [left; eexists; reflexivity|].
  destruct o as [i|]; [|left; eexists; reflexivity].
  destruct (get_ctx_reads i s) as [[cx E]|[w E]]; [rewrite !(bind_ok E)|rewrite !(bind_fail E); right; eexists; reflexivity].
  destruct (IH (x_parent cx) s) as [[l E1]|[w E1]]; [rewrite !(bind_ok E1); left|rewrite !(bind_fail E1); right]; eexists; reflexivity.
Qed.

(* the failure is a diagnostic, or the crash of a dangling context on the way up: never a value, never a loop signal *)
Lemma runtime_error_fails {A} cls t c s :
  exists f, @runtime_error_cls A cls t c s = (Fail f, s) /\ match f with FErr _ | FCrash _ => True | _ => False end.
Proof.
  unfold runtime_error_cls.
  destruct (get_ctx_reads c s) as [[cx E]|[w E]]; [rewrite (bind_ok E)|rewrite (bind_fail E); eexists; split; [reflexivity|exact I]].
  destruct (trace_aux_reads (S (x_depth cx)) (x_parent cx) s) as [[l E1]|[w E1]]; [rewrite (bind_ok E1)|rewrite (bind_fail E1)];
    eexists; (split; [reflexivity|exact I]).
Qed.
Corollary rt_error_pure {A} t c s : exists f, @rt_error A t c s = (Fail f, s).
Proof. destruct (@runtime_error_fails A EOther t c s) as [f [E _]]. exists f. exact E. Qed.

(* primitives, enumerated values and pointers are copied as they are *)
Lemma copy_val_non_record fuel p s : (forall tn c, p <> PRec tn c) -> copy_val fuel p s = (Ok p, s).
Proof. intros H. destruct p as [| | | | | | | |tn0 c0]; try (destruct fuel; reflexivity). exfalso. exact (H tn0 c0 eq_refl). Qed.

(* copying a record allocates a new private context: its identifier is the one just taken from the counter (so, where
   identifiers in use lie below the counter -- Lemmas_DeepCopy.hb -- it differs from every existing context) *)
Lemma copy_ctx_fresh f c s c' s' : copy_ctx f c s = (Ok c', s') -> c' = s_next s.
Proof.
  destruct f as [|f']; [discriminate|]. cbn [copy_ctx]. intros E.
  apply bind_get_ctx_inv in E as [cx [_ E]]. rewrite bind_fresh in E.
  apply bind_inv in E. destruct E as [u1 [s3 [_ E]]].
  apply bind_inv in E. destruct E as [vars [s4 [_ E]]].
  apply bind_inv in E. destruct E as [arrs [s5 [_ E]]].
  apply bind_inv in E. destruct E as [u2 [s6 [_ E]]].
  inversion E; reflexivity.
Qed.

Lemma copy_record_fresh_ctx f tn c s p s' :
  copy_val (S f) (PRec tn c) s = (Ok p, s') -> exists c', p = PRec tn c' /\ c' = s_next s.
Proof.
  cbn [copy_val]. intros H. apply bind_inv in H. destruct H as [c' [s1 [E H]]]. inversion H; subst.
  exists c'. split; [reflexivity|]. eapply copy_ctx_fresh; eauto.
Qed.
