(* Lemmas_PedRun.v — --pedantic only rejects, whole launcher: run_file with the option either produces
   exactly the observation it produces without it, or stops with one pedantic Error and exit status 1. *)
From PE2 Require Import Run Lemmas_Lexer Lemmas_PedParser Lemmas_Out Lemmas_Run.
Local Open Scope Z_scope.

Definition obs_ped_reject (o : observation) : Prop :=
  ob_exit o = 1 /\ ob_status o = SDone /\ exists d, ob_diags o = [d] /\ d_kind d = DPedantic.

Lemma finish_diag d s misc : d_kind d = DPedantic -> obs_ped_reject (finish (EDiag d) s [] misc).
Proof. intros H. unfold finish, obs_ped_reject. cbn. repeat split. exists d. split; [reflexivity|exact H]. Qed.

(* ---- each construct is rejected where it stands, with the state it found ---- *)
Lemma break_continue_rejected s toks s1 w :
  word_loop (S (List.length (rest s))) s [] = (s1, w) ->
  lookup_kw w keywords = Some TBREAK \/ lookup_kw w keywords = Some TCONTINUE ->
  make_word true s toks = LErr (mkLexErr LexPedantic (line s1) (col s)).
Proof. intros Hw [H|H]; unfold make_word; rewrite Hw, H; reflexivity. Qed.

Lemma cast_rejected self s : parse_cast_body true self s = PFail LexPedantic (cur s) s.
Proof. reflexivity. Qed.

Lemma else_if_rejected self acc s :
  is_t s TELSE = true -> is_t (adv s) TIF = true ->
  parse_if_tail_body true self acc s = PFail LexPedantic (cur (adv s)) (adv s).
Proof. intros H1 H2. unfold parse_if_tail_body. rewrite H1, H2. reflexivity. Qed.

(* the run-time guard of assignment / INPUT to an undeclared name fails without touching the state *)
Lemma undeclared_rejected t s :
  ped_guard true t s = (Fail (FErr (mkDiag DPedantic (tline t) (tcol t) EOther [])), s).
Proof. reflexivity. Qed.
Lemma undeclared_accepted t s : ped_guard false t s = (Ok Datatypes.tt, s).
Proof. reflexivity. Qed.

Section Main.
Variable lim : limits.
Variable fuel : nat.

(* the main block: a rejected run stops where the evaluator stopped, and what it had printed is a prefix of what the
   accepted run prints *)
Lemma run_main_prefix repl b root s :
  run_main true lim fuel repl b root s = run_main false lim fuel repl b root s \/
  exists d s1, run_main true lim fuel repl b root s = (EDiag d, s1) /\ d_kind d = DPedantic /\
               out_ext s1 (snd (run_main false lim fuel repl b root s)).
Proof.
  destruct (run_block_ped_output_prefix repl lim fuel b root s) as [E|[[d [s' [E [Hk Hc]]]] HI]].
  - left. unfold run_main. rewrite E. reflexivity.
  - right. exists d, s'. split; [unfold run_main; rewrite E; reflexivity|]. split; [exact Hk|].
    rewrite run_main_state. rewrite E in HI. exact HI.
Qed.

Definition src_rel (x y : entry_res * st) : Prop := x = y \/ exists d s, x = (EDiag d, s) /\ d_kind d = DPedantic.

Lemma run_source_rel repl src root s : src_rel (run_source true lim fuel repl src root s) (run_source false lim fuel repl src root s).
Proof.
  unfold run_source. destruct (lex_rel src) as [E|[e [E Hk]]].
  - rewrite E. destruct (lex false src) as [toks|e]; [|left; reflexivity].
    destruct (parse_program_ped_only_rejects toks) as [E2|[t [ps E2]]].
    + rewrite E2. destruct (parse_program false toks) as [b ps|k t ps|]; [|left; reflexivity|left; reflexivity].
      cbv zeta. destruct (run_main_prefix repl b root (emit_warnings (p_warns ps) s)) as [E3|[d [s' [E3 [Hd _]]]]].
      * rewrite E3. left. reflexivity.
      * rewrite E3. right. eexists. eexists. split; [reflexivity|exact Hd].
    + rewrite E2. right. eexists. eexists. split; [reflexivity|reflexivity].
  - rewrite E. right. eexists. eexists. split; [reflexivity|]. unfold diag_of_lex. rewrite Hk. reflexivity.
Qed.

Theorem run_file_ped_only_rejects content stdin fs rnd :
  run_file true lim fuel content stdin fs rnd = run_file false lim fuel content stdin fs rnd
  \/ obs_ped_reject (run_file true lim fuel content stdin fs rnd).
Proof.
  unfold run_file. cbv zeta.
  destruct (run_source_rel false (content ++ [ch_nl]) root_id (init_state stdin fs rnd)) as [E|[d [s' [E Hd]]]].
  - rewrite E. left. reflexivity.
  - rewrite E. right. apply finish_diag. exact Hd.
Qed.

(* a construct the lexer or the parser recognises is rejected before anything executes: the observation is
   the parser warnings printed so far, a blank line, the diagnostic; the file system is untouched *)
Theorem lex_time_rejection content stdin fs rnd e :
  lex true (content ++ [ch_nl]) = inr e ->
  run_file true lim fuel content stdin fs rnd = mkObs [ch_nl] [diag_of_lex e] 1 fs SDone [].
Proof. apply lex_error_no_effects. Qed.

Theorem parse_time_rejection content stdin fs rnd toks k t ps :
  lex true (content ++ [ch_nl]) = inl toks -> parse_program true toks = PFail k t ps ->
  run_file true lim fuel content stdin fs rnd =
  mkObs (List.concat (map warning_text (rev (p_warns ps))) ++ [ch_nl]) [diag_of_parse k t] 1 fs SDone [].
Proof. apply parse_error_observation. Qed.

(* ---- a run-time rejection: everything printed before the construct, a blank line, the Error; and that text
        without the blank line is a prefix of what the program prints without the option ---- *)
Theorem run_time_rejection_output_prefix content stdin fs rnd toks b ps :
  lex true (content ++ [ch_nl]) = inl toks -> parse_program true toks = POk b ps ->
  run_file true lim fuel content stdin fs rnd = run_file false lim fuel content stdin fs rnd \/
  (obs_ped_reject (run_file true lim fuel content stdin fs rnd) /\
   exists pre more, ob_out (run_file true lim fuel content stdin fs rnd) = pre ++ [ch_nl] /\
                    ob_out (run_file false lim fuel content stdin fs rnd) = pre ++ more).
Proof.
  intros Hl Hp.
  assert (Hl0 : lex false (content ++ [ch_nl]) = inl toks) by (apply lex_ped_only_rejects; exact Hl).
  assert (Hp0 : parse_program false toks = POk b ps).
  { destruct (parse_program_ped_only_rejects toks) as [E|[t [s0 E]]]; [rewrite <- E; exact Hp|rewrite Hp in E; discriminate]. }
  rewrite !run_file_out. unfold run_file, run_source. rewrite Hl, Hl0, Hp, Hp0. cbv zeta.
  destruct (run_main_prefix false b root_id (emit_warnings (p_warns ps) (init_state stdin fs rnd))) as [E|[d [sp [E [Hk HI]]]]]; rewrite E.
  - left. reflexivity.
  - right. split; [apply finish_diag; exact Hk|]. exists (out_string sp). cbn [snd].
    (* the launcher's blank line before a diagnostic of the other run only adds to what that run printed *)
    assert (HI' : out_ext sp (snd (match run_main false lim fuel false b root_id (emit_warnings (p_warns ps) (init_state stdin fs rnd)) with
                                   | (EDiag d0, s2) => (EDiag d0, set_out ([ch_nl] :: s_out s2) s2)
                                   | r => r
                                   end))).
    { destruct (run_main false lim fuel false b root_id _) as [[|d0|a] s2]; cbn [snd] in *; try exact HI.
      eapply out_ext_trans; [exact HI|]. exists [[ch_nl]]. reflexivity. }
    destruct (out_ext_prefix _ _ HI') as [more Hm]. exists more. split; [apply out_string_emit|exact Hm].
Qed.
End Main.
